(* Model/Holds.v - the gates of bert_e/workflow/gitwaterflow/__init__.py that leave a pull request alone:

     handle_pull_request -> _handle_pull_request:
         early_checks(job)            status in ('OPEN','DECLINED') else NothingToDo; producer / consumer names
                                      else NotMyJob (UnrecognizedBranchPattern from branch_factory); destination
                                      exists on the remote else WrongDestination
         send_greetings(job)          InitMessage unless the robot already commented
         branch_factory x 2           cannot fail after early_checks
         handle_comments(job)         Model/Reactor.v (C07): options, then commands
         check_dependencies(job)      wait => NothingToDo; after_pull_request ids: unknown => IncorrectPullRequestNumber
                                      at the first failing id in the iteration order of a Python set (an INPUT here),
                                      all must be MERGED else AfterPullRequest
         clone_git_repo(job)          first step that works on the repository
         if status == 'DECLINED': handle_declined_pull_request(job)      every path raises

   and a small history model used by C12_full: user comments added and deleted, evaluations of a pull request,
   queue evaluations (handle_merge_queues), with "approvals and builds let it through" and "the queue finds these
   pull requests mergeable" as inputs.

   Data from Generated/Facts_C12.v (status tuple and literals, guard and always-raises flag of the DECLINED branch,
   exception kinds, what is notified, whether the queue code looks at holds), Generated/Facts_C07.v (registry) and
   Generated/Facts_C18.v (class flags, through Model/Names.v).  The order of the calls of _handle_pull_request is
   compared with [gate_prefix] in Properties/C12.v (C12_order).  No proofs in this file. *)
From Coq Require Import List String Ascii Bool Arith NArith.
Require Import BertE.Base.Str BertE.Base.C07Str BertE.Generated.Facts_C07 BertE.Generated.Facts_C12
               BertE.Model.Names BertE.Model.Reactor.
Import ListNotations.
Open Scope string_scope.

(* ------------------------------------------------------------------ data *)

Record pull_request := mk_pr {
  pr_status : string; pr_src : string; pr_dst : string; pr_author : string; pr_comments : list comment }.

Record config := mk_cfg { cf_robot : string; cf_admins : list string; cf_cmdline : list string }.

(* kind of an exception class of bert_e/exceptions.py (None: not a class this model knows) *)
Definition kind_of (cls : string) : option string := assoc cls exception_kind.
(* does handle_pull_request post the exception as a comment (notify_user) before re-raising it? *)
Definition notified (cls : string) : option bool :=
  option_map (fun k => (k =? notify_kind)%string) (kind_of cls).

(* ------------------------------------------------------------------ early_checks *)

(* Some cls: the exception class that leaves early_checks; None: it returns.
   `not is_cascade_producer(src) or not is_cascade_consumer(dst)` evaluates the source first and the
   destination only for a producer source; branch_factory raises UnrecognizedBranchPattern *)
Definition early_checks (dst_exists : bool) (status src dst : string) : option string :=
  if negb (mem_str status early_status_ok) then Some "NothingToDo" else
  match is_cascade_producer src with
  | None => Some "UnrecognizedBranchPattern"
  | Some false => Some "NotMyJob"
  | Some true =>
      match is_cascade_consumer dst with
      | None => Some "UnrecognizedBranchPattern"
      | Some false => Some "NotMyJob"
      | Some true => if dst_exists then None else Some "WrongDestination"
      end
  end.

(* ------------------------------------------------------------------ send_greetings *)

(* find_comment(pull_request, username=robot): any comment of the robot *)
Definition greets (robot : string) (cs : list comment) : bool :=
  negb (existsb (fun c => (c_author c =? robot)%string) cs).

(* the text of the InitMessage is not modelled; it does not start like a message to the robot *)
Definition greeting_text : string := "Hello".

(* the comment list handle_comments reads (the host is asked again: the greeting is in it) *)
Definition visible_comments (robot : string) (cs : list comment) : list comment :=
  if greets robot cs then cs ++ [mk_comment robot greeting_text] else cs.

(* ------------------------------------------------------------------ check_dependencies *)

(* int(pr_id) of an id the option handler let through: [0-9]+(_[0-9]+)*  (underscores are dropped) *)
Fixpoint drop_underscores (s : string) : string :=
  match s with
  | EmptyString => EmptyString
  | String c t => if (c =? "_")%char then drop_underscores t else String c (drop_underscores t)
  end.
Definition py_int_value (s : string) : N := dec_value (drop_underscores s).

Inductive dep_result :=
| DReturn                       (* the function returns *)
| DRaise (cls : string)         (* a message class *)
| DError (name : string).       (* AttributeError / TypeError: settings of an unexpected shape *)

(* job.project_repo.get_pull_request(int(pr_id)).status; None: the host raises *)
Definition dep_status (lookup : N -> option string) (d : string) : option string := lookup (py_int_value d).

(* the loop stops at the first id the host does not know *)
Fixpoint first_unknown (lookup : N -> option string) (ids : list string) : option string :=
  match ids with
  | [] => None
  | d :: t => match dep_status lookup d with None => Some d | Some _ => first_unknown lookup t end
  end.

Definition is_merged (lookup : N -> option string) (d : string) : bool :=
  match dep_status lookup d with Some st => (st =? dep_merged_status)%string | None => false end.

(* [order]: the elements of the set in the order Python iterates over them *)
Definition check_dependencies (lookup : N -> option string) (s : settings) (order : list string) : dep_result :=
  match get_setting "wait" s with
  | None => DError "AttributeError"
  | Some w =>
      if truthy w then DRaise "NothingToDo" else
      match get_setting "after_pull_request" s with
      | None => DError "AttributeError"
      | Some v =>
          if negb (truthy v) then DReturn else
          match v with
          | VSet l =>
              match first_unknown lookup order with
              | Some _ => DRaise "IncorrectPullRequestNumber"
              | None => if Nat.eqb (List.length l) (List.length (filter (is_merged lookup) order))
                        then DReturn else DRaise "AfterPullRequest"
              end
          | _ => DError "TypeError"       (* a truthy value that is not a set of ids *)
          end
      end
  end.

(* the id named by IncorrectPullRequestNumber (the only part of the outcome that depends on the order) *)
Definition reported_id (lookup : N -> option string) (order : list string) : option string :=
  first_unknown lookup order.

Definition after_ids (s : settings) : list string :=
  match get_setting "after_pull_request" s with Some (VSet l) => l | _ => [] end.

(* ------------------------------------------------------------------ the gate prefix of _handle_pull_request *)

Inductive fate :=
| Stopped (call cls : string)   (* exception [cls] leaves the top-level call [call]; nothing after it runs *)
| StoppedDeclined               (* handle_declined_pull_request runs: clean-up, then PullRequestDeclined / NothingToDo *)
| Continues (s : settings).     (* the repository is cloned and the rest of the program runs with settings [s] *)

Record evaluation := mk_eval { ev_greeted : bool; ev_fate : fate }.

Definition after_clone (status : string) (s : settings) : fate :=
  if (status =? declined_guard_status)%string then
    (if declined_always_raises then StoppedDeclined else Continues s)
  else Continues s.

(* [order l]: iteration order of the set whose elements were inserted in the order l *)
Definition evaluate (cf : config) (dst_exists : bool) (lookup : N -> option string)
           (order : list string -> list string) (p : pull_request) : evaluation :=
  match early_checks dst_exists (pr_status p) (pr_src p) (pr_dst p) with
  | Some cls => mk_eval false (Stopped "early_checks" cls)
  | None =>
      mk_eval (greets (cf_robot cf) (pr_comments p))
        match handle_comments registry (cf_cmdline cf) (cf_robot cf) (cf_admins cf) (pr_author p)
                              (visible_comments (cf_robot cf) (pr_comments p)) with
        | Err (EMsg cls) _ => Stopped "handle_comments" cls
        | Err (EUncaught n) _ => Stopped "handle_comments" n
        | Ok s =>
            match check_dependencies lookup s (order (after_ids s)) with
            | DRaise cls => Stopped "check_dependencies" cls
            | DError n => Stopped "check_dependencies" n
            | DReturn => after_clone (pr_status p) s
            end
        end
  end.

(* the calls of _handle_pull_request this model is about, in the order it assumes (compared with
   Facts_C12.hpr_calls in Properties/C12.v, C12_order): (callee, inside an if / try / loop) *)
Definition gate_prefix : list (string * bool) :=
  [("early_checks", false); ("send_greetings", false); ("branch_factory", false); ("branch_factory", false);
   ("handle_comments", false); ("check_dependencies", false); ("clone_git_repo", false);
   ("handle_declined_pull_request", true)].

(* top-level calls that can give the pull request an integration branch, an integration pull request, a
   queue entry or a merge (or push anything) *)
Definition creating_calls : list string :=
  ["create_integration_branches"; "update_integration_branches"; "push"; "create_integration_pull_requests";
   "handle_merge_queues"; "add_to_queue"; "merge_integration_branches"; "add_merged_pr"; "delete"].
Definition is_creating (c : string) : bool := mem_str c creating_calls.

Definition relevant_call (c : string) : bool := mem_str c (map fst gate_prefix) || is_creating c.

(* position of the first call named [c] among the relevant calls of the function *)
Fixpoint index_of (c : string) (l : list (string * bool)) : option nat :=
  match l with
  | [] => None
  | (x, _) :: t => if (x =? c)%string then Some 0%nat else option_map S (index_of c t)
  end.
Definition relevant_calls : list (string * bool) := filter (fun cb => relevant_call (fst cb)) hpr_calls.

(* every occurrence of a creating call comes after the first occurrence of [c] *)
Fixpoint all_creating_after (seen : bool) (c : string) (l : list (string * bool)) : bool :=
  match l with
  | [] => seen
  | (x, _) :: t => if is_creating x then seen && all_creating_after seen c t
                   else all_creating_after (seen || (x =? c)%string) c t
  end.
Definition precedes_creating (c : string) : bool := all_creating_after false c relevant_calls.

(* the call in which a fate ends *)
Definition stop_call (f : fate) : option string :=
  match f with
  | Stopped c _ => Some c
  | StoppedDeclined => Some "handle_declined_pull_request"
  | Continues _ => None
  end.

(* ------------------------------------------------------------------ history model (C12_full) *)

Record sys := mk_sys { s_prs : list (N * pull_request); s_queued : list N }.

Record hconfig := mk_hcfg {
  h_cf : config;
  h_use_queue : bool;
  h_order : list string -> list string;
  h_exists : string -> bool }.      (* remote_branch_exists *)

Inductive event :=
| EComment (id : N) (c : comment)                  (* somebody comments on pull request id *)
| EDelete (id : N) (k : nat)                       (* the k-th comment of pull request id is deleted *)
| EEvalPR (id : N) (ready direct : bool) (green : list N)
                                                   (* a job evaluates the pull request; [ready]: the rest of the
                                                      program (approvals, builds, ...) lets it through; [direct]:
                                                      queueing.is_needed says no queue is needed (skip-queue mode);
                                                      [green]: see EEvalQueue (used when it is already queued) *)
| EEvalQueue (green : list N).                     (* handle_merge_queues; [green]: the pull requests its selection
                                                      (C05) finds mergeable *)

Fixpoint find_pr (prs : list (N * pull_request)) (id : N) : option pull_request :=
  match prs with
  | [] => None
  | (i, p) :: t => if (i =? id)%N then Some p else find_pr t id
  end.

Definition mem_N (x : N) (l : list N) : bool := existsb (N.eqb x) l.

Definition lookup_of (w : sys) (id : N) : option string := option_map pr_status (find_pr (s_prs w) id).

Definition update_pr (f : pull_request -> pull_request) (id : N) (prs : list (N * pull_request))
  : list (N * pull_request) :=
  map (fun ip => if (fst ip =? id)%N then (fst ip, f (snd ip)) else ip) prs.

Definition with_comments (cs : list comment) (p : pull_request) : pull_request :=
  mk_pr (pr_status p) (pr_src p) (pr_dst p) (pr_author p) cs.
Definition with_status (st : string) (p : pull_request) : pull_request :=
  mk_pr st (pr_src p) (pr_dst p) (pr_author p) (pr_comments p).

Fixpoint remove_nth {A} (k : nat) (l : list A) : list A :=
  match l, k with
  | [], _ => []
  | _ :: t, O => t
  | x :: t, S k' => x :: remove_nth k' t
  end.

Definition merge_one (w : sys) (id : N) : sys :=
  mk_sys (update_pr (with_status dep_merged_status) id (s_prs w))
         (filter (fun q => negb (q =? id)%N) (s_queued w)).

(* handle_merge_queues: builds the queue from the q/ branches, selects from build statuses, merges.  Nothing in
   queueing.py / QueueCollection mentions comments or options (Facts_C12.queue_reads_holds = false, required by
   Proofs/C12Proofs.v): the pull requests' comments are not an input *)
Definition queue_selection (w : sys) (green : list N) : list N :=
  filter (fun id => mem_N id green) (s_queued w).

Definition eval_queue (w : sys) (green : list N) : sys * list N :=
  let sel := queue_selection w green in (fold_left merge_one sel w, sel).

(* one event: new state and the pull requests merged by it *)
Definition step (h : hconfig) (w : sys) (e : event) : sys * list N :=
  match e with
  | EComment id c =>
      (mk_sys (update_pr (fun p => with_comments (pr_comments p ++ [c]) p) id (s_prs w)) (s_queued w), [])
  | EDelete id k =>
      (mk_sys (update_pr (fun p => with_comments (remove_nth k (pr_comments p)) p) id (s_prs w)) (s_queued w), [])
  | EEvalPR id ready direct green =>
      match find_pr (s_prs w) id with
      | None => (w, [])
      | Some p =>
          match ev_fate (evaluate (h_cf h) (h_exists h (pr_dst p)) (lookup_of w) (h_order h) p) with
          | Continues _ =>
              if h_use_queue h && mem_N id (s_queued w) then eval_queue w green   (* already_in_queue *)
              else if negb ready then (w, [])
              else if h_use_queue h && negb direct then (mk_sys (s_prs w) (s_queued w ++ [id]), [])   (* add_to_queue, Queued *)
              else (merge_one w id, [id])                                              (* merge_integration_branches *)
          | _ => (w, [])
          end
      end
  | EEvalQueue green => eval_queue w green
  end.

(* log of a history: every merged pull request with the state the merging job started from *)
Fixpoint run (h : hconfig) (w : sys) (evs : list event) : list (N * sys) :=
  match evs with
  | [] => []
  | e :: t => let (w', merged) := step h w e in
              map (fun id => (id, w)) merged ++ run h w' t
  end.

(* no comment is added to or deleted from a pull request while it sits in the queue *)
Fixpoint quiet_while_queued (h : hconfig) (w : sys) (evs : list event) : bool :=
  match evs with
  | [] => true
  | e :: t =>
      match e with
      | EComment id _ | EDelete id _ => negb (mem_N id (s_queued w))
      | _ => true
      end && quiet_while_queued h (fst (step h w e)) t
  end.

(* ------------------------------------------------------------------ the witness histories of C12_refuted (F5) *)

(* queued, then held, then evaluated (nothing happens), then a queue evaluation triggered by a build report *)
Definition c12_cf : config := mk_cfg "bert-e" ["admin"] [].
Definition c12_h : hconfig := mk_hcfg c12_cf true (fun l => l) (fun _ => true).
Definition c12_pr1 : pull_request := mk_pr "OPEN" "bugfix/TEST-1" "development/4.3" "author" [].
Definition c12_pr2 : pull_request := mk_pr "OPEN" "bugfix/TEST-2" "development/4.3" "author" [].
Definition c12_w0 : sys := mk_sys [(1%N, c12_pr1); (2%N, c12_pr2)] [].
Definition c12_witness_wait : list event :=
  [EEvalPR 1 true false []; EComment 1 (mk_comment "author" "@bert-e wait"); EEvalPR 1 true false [1%N]; EEvalQueue [1%N]].
Definition c12_witness_after : list event :=
  [EEvalPR 1 true false []; EComment 1 (mk_comment "author" "@bert-e after_pull_request=2"); EEvalPR 1 true false [1%N];
   EEvalQueue [1%N]].

