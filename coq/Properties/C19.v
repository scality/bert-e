(* C19 - Integration branches and pull requests are kept one-to-one with their PR.
   This file contains only the property theorems; each follows in a line or a few from the lemmas of
   Proofs/C19Proofs.v and is followed by Print Assumptions.

   The full invariant (no hypothesis on source branch names) is FALSE of the faithful model and of the code:
   w/<version>/<source> is keyed on the source branch name only, so two open pull requests from the same
   branch share their integration branches and integration pull requests (C19_inv_full / C19_inv_refuted,
   C19_decline_own_full / C19_decline_own_refuted; witnesses replayed on the real system, corpus/C19).
   The partial theorems hold for worlds in which open pull requests have distinct source branches. *)
From Coq Require Import List String Bool ZArith.
Require Import BertE.Model.Integration BertE.Spec.C19Spec BertE.Proofs.C19Proofs.
Import ListNotations.
Open Scope Z_scope.

(* ---- the invariant, full statement: refuted *)
Definition C19_inv_full : Prop :=
  forall c w e w', c19_ev_ok w e -> WellFormed w -> OneToOne w -> step c w e = Ok w' -> OneToOne w'.

Theorem C19_inv_refuted : ~ C19_inv_full.
Proof.
  intro H. unfold C19_inv_full in H.
  destruct (c19_ok_intro (step c19_cfg_on c19_w_same_src (EvalPR 1 (c19_ctx OCreated))) (fun w' => one_to_one_b w' = false))
    as (w' & E & F); [vm_compute; reflexivity|].
  apply H in E; [| apply c19_casc_ok | apply c19_well_formed_b_sound | apply c19_one_to_one_b_spec]; try (vm_compute; reflexivity).
  apply c19_one_to_one_b_spec in E. rewrite E in F. discriminate F.
Qed.
Print Assumptions C19_inv_refuted.

(* ---- the invariant, partial: one event of any kind (evaluation of a parent or of a child pull request, commit
   event on any set of tips, queue evaluation, decline, merge report of the host, a new pull request from an
   unused branch), with any outcome of the gates, both settings of always_create_integration_pull_requests /
   always_create_integration_branches, with or without the two options, any number of pull requests and targets.
   c19_ev_ok asks that the targets of a destination have distinct versions and that a new pull request comes
   from a branch no open pull request uses. *)
Theorem C19_inv : forall c w e w',
  c19_ev_ok w e -> WellFormed w /\ DistinctSrc w /\ OneToOne w -> step c w e = Ok w' ->
  WellFormed w' /\ DistinctSrc w' /\ OneToOne w'.
Proof. exact c19_step_inv. Qed.
Print Assumptions C19_inv.

(* ---- any list of events: every order, every multiplicity *)
Theorem C19_inv_run : forall c es w w',
  c19_run_ok c w es -> WellFormed w /\ DistinctSrc w /\ OneToOne w -> run c w es = Ok w' ->
  WellFormed w' /\ DistinctSrc w' /\ OneToOne w'.
Proof.
  intros c es. induction es as [|e t IH]; intros w w' Hok HI E; cbn [run c19_run_ok] in *.
  - injection E as <-. exact HI.
  - destruct Hok as [He Ht]. destruct (step c w e) as [w1|] eqn:S; [|discriminate E].
    exact (IH w1 w' Ht (c19_step_inv c w e w1 He HI S) E).
Qed.
Print Assumptions C19_inv_run.

(* ---- redirection: an event on an integration pull request is handled as the event on its parent ... *)
Theorem C19_redirect_child : forall c x w ch p,
  NoDup (map pid (prs w)) -> In ch (prs w) -> probot ch = true -> pparent ch = Some (pid p) ->
  In p (prs w) -> probot p = false ->
  step c w (EvalPR (pid ch) x) = step c w (EvalPR (pid p) x).
Proof.
  intros c x w ch p ND Ic Hr Hp Ip Hu. cbn [step]. unfold eval_pr.
  rewrite (c19_resolve_child _ ch p ND Ic Hr Hp Ip Hu), (c19_resolve_user _ _ p ND Ip Hu). reflexivity.
Qed.
Print Assumptions C19_redirect_child.

(* ... and so is a commit event on the tip of its source branch and / or of its integration branches *)
Theorem C19_redirect_commit : forall c x w names p s,
  WellFormed w -> DistinctSrc w -> In p (prs w) -> pst p = OPEN -> psrc p = Src s ->
  names <> [] -> (forall n, In n names -> n = Src s \/ exists v, n = W v s) ->
  step c w (EvalCommit names x) = step c w (EvalPR (pid p) x).
Proof. exact c19_redirect_commit. Qed.
Print Assumptions C19_redirect_commit.

(* ---- decline: declining p on the host and evaluating it yields exactly the world the statement prescribes
   (its open integration pull requests DECLINED, its integration branches gone, nothing else touched) ... *)
Theorem C19_decline : forall c x w p s d ts,
  WellFormed w /\ DistinctSrc w /\ OneToOne w -> NoUserW w -> user_open_pr w p s -> pdst p = Dst d ->
  targets_for d (cascade x) = Some ts -> NoDup ts -> FirstClean s ts w -> oc x = ODeclined ->
  step c (user_decline (pid p) w) (EvalPR (pid p) x) = Ok (spec_after_decline s ts (user_decline (pid p) w)).
Proof. exact c19_decline. Qed.
Print Assumptions C19_decline.

(* ... and the declined ones are named and titled after p *)
Theorem C19_decline_named : forall w p s ts c0,
  WellFormed w /\ DistinctSrc w /\ OneToOne w -> user_open_pr w p s -> In c0 (prs w) ->
  is_integration_pr_b s ts c0 = true -> named_after p c0.
Proof.
  intros w p s ts c0 HI Hp Ic Hb. apply (c19_Inv_iff w) in HI as (_ & _ & _ & Hc).
  unfold is_integration_pr_b in Hb. apply andb_true_iff in Hb as [Hb Hx]. apply andb_true_iff in Hb as [Hr Hopen].
  apply c19_is_open_true in Hopen. apply existsb_exists in Hx as (v & _ & M).
  apply (c19_child_match_iff v s c0) in M as [Ms Md]. apply (proj2 (Hc p s Hp v)). repeat split; assumption.
Qed.
Print Assumptions C19_decline_named.

(* without the hypothesis on source names: declining one pull request declines integration pull requests named
   after another one *)
Definition C19_decline_own_full : Prop :=
  forall c x w p s d ts w', WellFormed w -> user_open_pr w p s -> pdst p = Dst d ->
    targets_for d (cascade x) = Some ts -> NoDup ts -> oc x = ODeclined ->
    step c (user_decline (pid p) w) (EvalPR (pid p) x) = Ok w' ->
    forall q q', In q (prs w) -> pst q = OPEN -> pid q <> pid p -> In q' (prs w') -> pid q' = pid q ->
                 pst q' = DECLINED -> pparent q = Some (pid p).

Theorem C19_decline_own_refuted : ~ C19_decline_own_full.
Proof. exact c19_decline_own_refuted. Qed.
Print Assumptions C19_decline_own_refuted.

(* and, distinct sources among OPEN pull requests notwithstanding: an event on a pull request declined long ago
   (or on one of its old children) declines the integration pull requests of the open pull request that now uses
   the same branch *)
Definition C19_decline_stale_full : Prop :=
  forall c x w p w', WellFormed w -> DistinctSrc w -> OneToOne w -> NoUserW w ->
    In p (prs w) -> probot p = false -> pst p = DECLINED -> oc x = ODeclined -> c19_cascade_ok x ->
    step c w (EvalPR (pid p) x) = Ok w' ->
    forall q q', In q (prs w) -> pst q = OPEN -> In q' (prs w') -> pid q' = pid q -> pst q' = DECLINED ->
                 pparent q = Some (pid p).

Theorem C19_decline_stale_refuted : ~ C19_decline_stale_full.
Proof. exact c19_decline_stale_refuted. Qed.
Print Assumptions C19_decline_stale_refuted.

(* ---- however often: the evaluation of a DECLINED pull request, delivered any number of times and whatever the
   gates answer, creates no branch and no pull request (pull requests only go from OPEN to DECLINED / MERGED), and
   its decline handling leaves none of its w/ names *)
Theorem C19_declined_never_creates : forall c x w p w',
  NoDup (map pid (prs w)) -> In p (prs w) -> probot p = false -> pst p = DECLINED ->
  step c w (EvalPR (pid p) x) = Ok w' ->
  (forall n, In n (branches w') -> In n (branches w)) /\ c19_demote (prs w) (prs w').
Proof.
  intros c x w p w' ND Ip Hu Hd E. rewrite (c19_step_user c x w p ND Ip Hu) in E.
  destruct (c19_eval_user_Ok _ _ _ _ _ E) as [->|(s & d & ts & Hs & Hdst & Ht)]; [split; [auto | apply c19_demote_refl]|].
  unfold eval_user in E. rewrite Hd, Hs, Hdst, Ht in E. destruct (oc x); try discriminate E; injection E as <-.
  - split; [auto | apply c19_demote_refl].
  - split; [intros n Hn; apply filter_In in Hn; apply Hn | apply c19_reset_demote].
  - split; [intros n Hn; apply c19_In_remove in Hn; apply Hn | apply c19_declined_demote].
Qed.
Print Assumptions C19_declined_never_creates.

Theorem C19_declined_clean : forall c x w p s d ts w',
  NoDup (map pid (prs w)) -> In p (prs w) -> probot p = false -> pst p = DECLINED ->
  psrc p = Src s -> pdst p = Dst d -> targets_for d (cascade x) = Some ts -> oc x = ODeclined ->
  step c w (EvalPR (pid p) x) = Ok w' -> NoIntegrationBranchLeft s ts w'.
Proof.
  intros c x w p s d ts w' ND Ip Hu Hd Hs Hdst Ht Ho E. rewrite (c19_step_user c x w p ND Ip Hu) in E.
  unfold eval_user in E. rewrite Ho, Hd, Hs, Hdst, Ht in E. injection E as <-. apply c19_remove_w_clean.
Qed.
Print Assumptions C19_declined_clean.

(* ---- merge: after the direct merge no integration branch of p is left ... *)
Theorem C19_merge : forall c x w p s d ts w',
  NoDup (map pid (prs w)) -> In p (prs w) -> probot p = false -> psrc p = Src s -> pdst p = Dst d ->
  targets_for d (cascade x) = Some ts -> oc x = OMerged ->
  step c w (EvalPR (pid p) x) = Ok w' -> NoIntegrationBranchLeft s (beyond_first ts) w'.
Proof.
  intros c x w p s d ts w' ND Ip Hu Hs Hd Ht Ho E. rewrite (c19_step_user c x w p ND Ip Hu) in E.
  unfold eval_user in E. rewrite Ho, Hs, Hd, Ht in E. destruct (pst p); try discriminate E.
  destruct (integration_gate c x ts); [|discriminate E]. injection E as <-. apply c19_remove_w_clean.
Qed.
Print Assumptions C19_merge.

(* ... nor after a queue evaluation that merges p (commit event on a queue tip, or an admin queue job) *)
Theorem C19_merge_queue : forall c x w p s d ts merged e w',
  NoDup (map pid (prs w)) -> In p (prs w) -> psrc p = Src s -> pdst p = Dst d ->
  targets_for d (cascade x) = Some ts -> oc x = OQueue merged -> In (pid p) merged ->
  (e = QueueJob x \/ exists names, e = EvalCommit names x /\ names <> [] /\
                                   use_queue c && existsb is_queue_name names = true) ->
  step c w e = Ok w' -> NoIntegrationBranchLeft s ts w'.
Proof.
  intros c x w p s d ts merged e w' ND Ip Hs Hd Ht Ho Hm He E.
  assert (Eq : queue_eval c x w = Ok w').
  { destruct He as [->|[names [-> [Hne Hq]]]]; [exact E|]. cbn [step] in E. unfold handle_commit in E.
    destruct names; [contradiction|]. rewrite Hq in E. exact E. }
  unfold queue_eval in Eq. rewrite Ho in Eq. destruct (use_queue c); [|discriminate Eq]. injection Eq as <-.
  exact (c19_merge_queue x w p s d ts merged ND Ip Hs Hd Ht Hm).
Qed.
Print Assumptions C19_merge_queue.

(* ---- the executable monitor of the invariant is exact *)
Theorem C19_monitor_exact : forall w, (one_to_one_b w = true <-> OneToOne w) /\ (distinct_src_b w = true <-> DistinctSrc w).
Proof.
  intro w. split; [apply c19_one_to_one_b_spec | apply c19_distinct_src_b_spec].
Qed.
Print Assumptions C19_monitor_exact.
