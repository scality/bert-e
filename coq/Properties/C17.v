(* C17 - CI results are aggregated soundly and a green verdict is never downgraded.
   This file contains only the property theorems; each follows in a line or a few from the lemmas of
   Proofs/C17Proofs.v - the last two groups from IoCacheProofs.v, C17IoProofs.v and CondCacheProofs.v, imported where
   they begin because they have a store, is_green, green and lookup of their own - and is followed by Print Assumptions.

   Vocabulary (Model/CI.v, Model/Lru.v, Spec/C17Spec.v):
     state runs            AggregatedWorkflowRuns(...).state on the list of workflow runs, Ok s or KeyError
     considered runs       the runs the statement counts: not workflow_dispatch, best run of their workflow id
     spec_green runs       some branch has all its considered runs concluded "success"
     run_seq g size cs ops the status-cache protocol from cache content cs: cache after each operation, answers
     code_cfg              the guards found in /repo (Generated/Facts_C17.v)                              *)
From Coq Require Import List String Bool ZArith Lia.
Require Import BertE.Generated.Facts_C17 BertE.Model.CI BertE.Model.Lru BertE.Spec.C17Spec BertE.Proofs.C17Proofs.
Import ListNotations.
Open Scope string_scope.
Open Scope list_scope.

(* ---------------------------------------------------------------- aggregation *)

(* remove_unwanted_workflows keeps exactly the considered runs, for every list of runs whose (non-dispatch)
   conclusions are in the ranking table; outside the table the lookup raises (C17_agg_keyerror). *)
Theorem C17_considered : forall runs,
  known_runs (not_dispatch runs) -> remove_unwanted runs = Ok (considered runs).
Proof. exact remove_unwanted_considered. Qed.
Print Assumptions C17_considered.

(* SUCCESSFUL only if some branch has all its considered workflows green - for run lists of ANY length,
   provided the considered runs of one branch follow each other. *)
Theorem C17_agg : forall runs,
  known_runs (not_dispatch runs) -> contiguous (map r_branch (considered runs)) ->
  state runs = Ok "SUCCESSFUL" -> spec_green runs = true.
Proof. exact agg_sound. Qed.
Print Assumptions C17_agg.

(* The quantifier's bound (at most two workflow ids, any number of runs and branches) implies the hypothesis. *)
Theorem C17_agg_two_workflows : forall runs,
  known_runs (not_dispatch runs) -> (List.length (first_wids (not_dispatch runs)) <= 2)%nat ->
  state runs = Ok "SUCCESSFUL" -> spec_green runs = true.
Proof.
  intros runs K L. apply agg_sound; [exact K|]. apply contiguous_short. rewrite map_length.
  unfold considered. etransitivity; [apply flat_map_length_le | exact L].
  intro w. destruct (best_of w (not_dispatch runs)); cbn; lia.
Qed.
Print Assumptions C17_agg_two_workflows.

(* Without the hypothesis the statement is false (candidate F9, three workflow ids): *)
Definition C17_agg_full : Prop :=
  forall runs, known_runs (not_dispatch runs) -> state runs = Ok "SUCCESSFUL" -> spec_green runs = true.
Theorem C17_agg_refuted : ~ C17_agg_full.
Proof. unfold C17_agg_full. intro H. specialize (H f9_witness eq_refl eq_refl). vm_compute in H. discriminate H. Qed.
Print Assumptions C17_agg_refuted.

(* never SUCCESSFUL when there is no run (or only workflow_dispatch runs) *)
Theorem C17_no_run : forall runs, not_dispatch runs = [] -> state runs = Ok "NOTSTARTED".
Proof. exact agg_no_run. Qed.
Print Assumptions C17_no_run.

(* the converse, which the statement does not ask for: never wrongly not SUCCESSFUL, however runs interleave *)
Theorem C17_agg_complete : forall runs,
  known_runs (not_dispatch runs) -> spec_green_ready runs = true -> state runs = Ok "SUCCESSFUL".
Proof. exact agg_complete. Qed.
Print Assumptions C17_agg_complete.

Theorem C17_agg_keyerror :
  state [mkRun "push" "completed" (Some "weird") 1 "bA"; mkRun "push" "completed" (Some "success") 1 "bA"] = KeyError
  /\ state [mkRun "push" "completed" (Some "weird") 1 "bA"] = Ok "FAILED".
Proof. exact agg_keyerror. Qed.
Print Assumptions C17_agg_keyerror.

(* the two reductions behind the 96-symbol enumeration alphabet *)
Theorem C17_reduction : forall runs,
  state (map norm_run runs) = state runs /\
  (known_runs (not_dispatch runs) -> spec_green (map norm_run runs) = spec_green runs).
Proof. exact (fun runs => conj (state_norm runs) (spec_green_norm runs)). Qed.
Print Assumptions C17_reduction.

(* the other reading of "best run of each workflow" (per branch) is not what is computed, inside the quantifier *)
Theorem C17_per_branch_reading_differs :
  state per_branch_witness = Ok "SUCCESSFUL" /\ spec_green per_branch_witness = true /\
  per_branch_green per_branch_witness = false.
Proof. vm_compute. repeat split; reflexivity. Qed.
Print Assumptions C17_per_branch_reading_differs.

(* a GitHub commit status is SUCCESSFUL exactly for the raw state "success" *)
Theorem C17_status_state : forall raw, status_state raw = Ok "SUCCESSFUL" <-> raw = Some "success".
Proof. exact status_state_green. Qed.
Print Assumptions C17_status_state.

(* ---------------------------------------------------------------- LRU cache *)

Theorem C17_lru_bounded : forall size ops, (1 <= size)%nat -> forall l, lru_wf l -> (List.length l <= size)%nat ->
  exists l', lru_run size l ops = Ok l' /\ lru_wf l' /\ (List.length l' <= size)%nat.
Proof. exact lru_run_bounded. Qed.
Print Assumptions C17_lru_bounded.

Theorem C17_lru_get_after_set : forall size c v l l',
  lru_wf l -> lru_set size c v l = Ok l' -> fst (lru_get c l') = Some v.
Proof.
  intros size c v l l' W H. destruct (lru_set_cells size c v l l' W H) as (_ & _ & Lk & _). rewrite lru_get_eq. exact Lk.
Qed.
Print Assumptions C17_lru_get_after_set.

(* eviction order: the written key becomes the most recent one; a new key entering a full cache evicts
   exactly the least recently used one; other values are untouched *)
Theorem C17_lru_set_order : forall size c v l l', lru_set size c v l = Ok l' -> (List.length l <= size)%nat ->
  lru_keys l' =
  if in_dec string_dec c (lru_keys l) then filter (fun x => negb (x =? c)) (lru_keys l) ++ [c]
  else if (List.length l <? size)%nat then lru_keys l ++ [c] else tl (lru_keys l) ++ [c].
Proof. exact lru_set_order. Qed.
Print Assumptions C17_lru_set_order.

Theorem C17_lru_get_order : forall c l, lru_wf l ->
  lru_keys (snd (lru_get c l)) =
  if in_dec string_dec c (lru_keys l) then filter (fun x => negb (x =? c)) (lru_keys l) ++ [c] else lru_keys l.
Proof.
  intros c l _. unfold lru_get. destruct (in_dec string_dec c (lru_keys l)) as [Hin|Hnin].
  - apply lru_lookup_some in Hin. destruct (lru_lookup c l) as [v0|]; [|destruct (Hin eq_refl)]. apply lru_moved_keys.
  - apply lru_lookup_none in Hnin. rewrite Hnin. reflexivity.
Qed.
Print Assumptions C17_lru_get_order.

Theorem C17_lru_set_map : forall size c s l l', lru_wf l -> lru_set size c s l = Ok l' ->
  lru_wf l' /\ ((List.length l <= size)%nat -> (List.length l' <= size)%nat) /\
  lru_lookup c l' = Some s /\
  (forall c', c' <> c -> In c' (lru_keys l') -> In c' (lru_keys l) /\ lru_lookup c' l' = lru_lookup c' l).
Proof.
  intros size c s l l' W H. destruct (lru_set_cells size c s l l' W H) as (W' & L & Lk & Oth).
  split; [exact W'|]. split; [exact L|]. split; [exact Lk|]. intros c' Hne Hin.
  apply lru_lookup_some in Hin. destruct (Oth c' Hne) as [E|E]; [destruct (Hin E)|].
  split; [|exact E]. apply lru_lookup_some. rewrite <- E. exact Hin.
Qed.
Print Assumptions C17_lru_set_map.

(* ---------------------------------------------------------------- status cache protocol *)

(* no exception with a cache size >= 1, in particular with the default size of the code *)
Theorem C17_no_exception : forall g size ops, (1 <= size)%nat -> forall cs, exists tr, run_seq g size cs ops = Ok tr.
Proof. exact run_seq_total. Qed.
Print Assumptions C17_no_exception.
Theorem C17_default_size : (1 <= lru_default_size)%nat.
Proof. apply Nat.leb_le. reflexivity. Qed.
Print Assumptions C17_default_size.

(* the guards the theorems below rely on are the ones found in the code *)
Theorem C17_code_guards : guards_ok code_cfg.
Proof. exact code_guards_ok. Qed.
Print Assumptions C17_code_guards.

(* unique keys / commits and the size bound hold after every operation of every run *)
Theorem C17_bounded : forall g size, guards_ok g -> forall ops cs tr,
  cs_wf cs -> cs_bounded size cs -> run_seq g size cs ops = Ok tr ->
  Forall (fun st => cs_wf (fst st) /\ cs_bounded size (fst st)) tr.
Proof. exact run_seq_invariant. Qed.
Print Assumptions C17_bounded.

(* C17_sticky, full: from any cache content in which (c, k) is SUCCESSFUL, for every sequence of events and
   polls, every answer for (c, k) is SUCCESSFUL up to the first moment c is not in the cache of k any more.
   [sticky_full g] is that statement; it holds when get_commit_status keeps green entries ... *)
Theorem C17_sticky_repaired : forall g, guards_ok g -> keep_green g = true -> sticky_full g.
Proof. exact sticky_full_holds. Qed.
Print Assumptions C17_sticky_repaired.

(* ... and is false when it does not (candidate F3) ... *)
Theorem C17_sticky_refuted : forall g, keep_green g = false -> ~ sticky_full g.
Proof. exact sticky_refuted. Qed.
Print Assumptions C17_sticky_refuted.

(* ... where what remains true excludes exactly the GitHub polls of the same commit under another key that
   reach the host while it reports k not SUCCESSFUL (safe_for) *)
Theorem C17_sticky_partial : forall g, guards_ok g -> sticky_partial g.
Proof. exact sticky_partial_holds. Qed.
Print Assumptions C17_sticky_partial.
Theorem C17_sticky_bitbucket : forall g, guards_ok g ->
  sticky_for g (fun _ _ o => match o with SPollGH _ _ (Some _) => False | _ => True end).
Proof. intros g Gk. exact (sticky_for_weaken g _ _ (fun c k o => gh_poll_free_safe o c k) (sticky_partial_holds g Gk)). Qed.
Print Assumptions C17_sticky_bitbucket.
Theorem C17_sticky_single_key : forall g, guards_ok g ->
  sticky_for g (fun _ k o => match o with SPollGH _ k' _ => k' = k | _ => True end).
Proof.
  intros g Gk. apply (sticky_for_weaken g safe_for); [|exact (sticky_partial_holds g Gk)].
  intros c k [| | |c' k' [l|]|] Ho; cbn [safe_for]; tauto.
Qed.
Print Assumptions C17_sticky_single_key.

(* The code as it is: the full statement if Facts say get_commit_status keeps green entries, otherwise its
   refutation and the partial statement. *)
Theorem C17_sticky_code : sticky_verdict code_cfg.
Proof. exact (sticky_verdict_holds code_cfg code_guards_ok). Qed.
Print Assumptions C17_sticky_code.

(* an answer SUCCESSFUL leaves (c, k) SUCCESSFUL in the cache: "answered or cached" is "cached" *)
Theorem C17_answered_is_cached : forall g size cs o cs' a c k,
  guards_ok g -> cs_wf cs -> op_wf o -> step g size cs o = Ok (cs', a) ->
  poll_of o = Some (c, k) -> a = Some "SUCCESSFUL" -> cached_green cs' c k.
Proof. exact answered_green_is_cached. Qed.
Print Assumptions C17_answered_is_cached.

(* C17_fresh: otherwise the answer is what the host reports now *)
Theorem C17_fresh : forall g size cs o cs' a c k,
  guards_ok g -> cs_wf cs -> step g size cs o = Ok (cs', a) ->
  poll_of o = Some (c, k) -> ~ cached_green cs c k -> a = Some (host_now o).
Proof.
  intros g size cs o cs' a c k Gk _ E Po Hn. rewrite (step_answer g size cs o cs' a c k Gk E Po).
  destruct (greenb cs c k) eqn:G; [destruct (Hn (proj2 (cached_green_greenb cs c k) G)) | reflexivity].
Qed.
Print Assumptions C17_fresh.

(* the executable monitor of the specification (sticky + fresh + size bound, with its own book-keeping of what
   Bert-E has seen SUCCESSFUL and still holds) accepts every run of the model from the empty cache *)
Theorem C17_monitor_repaired : forall g, guards_ok g -> keep_green g = true -> monitor_full g.
Proof. exact monitor_full_holds. Qed.
Print Assumptions C17_monitor_repaired.
Theorem C17_monitor_bitbucket : forall g, guards_ok g -> forall size ops tr,
  Forall op_wf ops -> Forall gh_poll_free ops -> run_seq g size [] ops = Ok tr ->
  spec_trace_ok size (observe ops tr) = Pass.
Proof.
  intros g Gk size ops tr Wf Hf.
  exact (monitor_from_empty g Gk size ops tr Wf (Forall_impl _ (fun o H => or_intror H) Hf)).
Qed.
Print Assumptions C17_monitor_bitbucket.
Theorem C17_monitor_code : monitor_verdict code_cfg.
Proof. exact (monitor_verdict_holds code_cfg code_guards_ok). Qed.
Print Assumptions C17_monitor_code.

(* reports built from the host's JSON are dicts (the hypothesis op_wf above) *)
Theorem C17_reports_are_dicts : forall o so, eval_op o = Ok so -> op_wf so.
Proof. exact eval_op_wf. Qed.
Print Assumptions C17_reports_are_dicts.

(* the reduction behind the enumeration of the protocol: states matter only as SUCCESSFUL / not.  For every
   renaming f of the states that keeps SUCCESSFUL apart, the renamed operations run from the renamed cache
   give the renamed caches (same commits, same order) and answers of the same greenness. *)
Theorem C17_cache_reduction : forall f : string -> string, (forall s, is_green (f s) = is_green s) ->
  forall g size ops cs,
  match run_seq g size cs ops, run_seq g size (c17_mc f cs) (map (c17_mo f) ops) with
  | Ok t1, Ok t2 => c17_trace_rel f t1 t2
  | KeyError, KeyError => True
  | _, _ => False
  end.
Proof. exact run_seq_reduction. Qed.
Print Assumptions C17_cache_reduction.
Theorem C17_two_valued : forall s, is_green (two_valued s) = is_green s.
Proof. intro s. unfold two_valued. destruct (is_green s) eqn:E; [exact E | reflexivity]. Qed.
Print Assumptions C17_two_valued.

(* ---- operations of several threads interleaved at the hosts' I/O points (Model/IoCache.v) ---------------------
   The guards are OBSERVED on the running code (Generated/Facts_C17.v, probe_inflight): the check_suite handler and
   both get_build_status look at the cache again when the host's answer arrives.  With them, once a (commit, key)
   cell is SUCCESSFUL no interleaving of events, check_suite writes, polls and arbitrarily late host answers
   changes it, and every poll that answers, answers SUCCESSFUL. *)
Require Import BertE.Model.IoCache BertE.Proofs.IoCacheProofs BertE.Proofs.C17IoProofs.

Theorem C17_observed_guards : observed_guards_github = all_guarded /\ observed_guards_bitbucket = all_guarded.
Proof. exact observed_guards_all. Qed.
Print Assumptions C17_observed_guards.

Theorem C17_sticky_interleaved : forall l,
  (fst (io_run observed_guards_github green l) = green /\
   forall a, In (Some a) (snd (io_run observed_guards_github green l)) -> a = "SUCCESSFUL"%string) /\
  (fst (io_run observed_guards_bitbucket green l) = green /\
   forall a, In (Some a) (snd (io_run observed_guards_bitbucket green l)) -> a = "SUCCESSFUL"%string).
Proof. intros l. destruct observed_guards_all as [-> ->]. split; exact (io_green_is_sticky l). Qed.
Print Assumptions C17_sticky_interleaved.

(* ---- the conditional-request cache of the GitHub client in front of a host with validators (Model/CondCache.v) ----
   Polls reach the host through Client._get, which answers a 304 from its own cache.  Whenever the cache key
   determines the resource, every GET returns what the host holds for the requested resource at that moment: for
   every sequence of requests, content changes on the host and evictions, whichever validator the host sends
   (none, Last-Modified, ETag).  Client._mk_key is observed to separate resources (Generated/Facts_C17.v); with a key
   that forgets part of the request the statement is false (C17_conditional_cache_needs_the_key). *)
Require Import BertE.Model.CondCache BertE.Proofs.CondCacheProofs.

Theorem C17_conditional_cache_sound : forall keyf : nat -> nat,
  (forall a b, keyf a = keyf b -> a = b) ->
  forall m ops, answers keyf m ops = spec_answers init_host ops.
Proof. exact cache_sound. Qed.
Print Assumptions C17_conditional_cache_sound.

Theorem C17_observed_mk_key : mk_key_separates_resources = true.
Proof. reflexivity. Qed.
Print Assumptions C17_observed_mk_key.

Theorem C17_conditional_cache_used :
  answers key_id HDate [Change 2 7; Get 2; Get 2; Change 2 9; Get 2; Get 3] = [7; 7; 9; 0]%nat
  /\ List.length (s_cache (fst (crun key_id HDate init_state [Change 2 7; Get 2; Get 2]))) = 1%nat.
Proof. exact cache_is_used. Qed.
Print Assumptions C17_conditional_cache_used.

Theorem C17_conditional_cache_needs_the_key :
  answers key_lossy HDate [Change 3 5; Change 2 7; Get 2; Get 3] = [7; 7]%nat
  /\ spec_answers init_host [Change 3 5; Change 2 7; Get 2; Get 3] = [7; 5]%nat.
Proof. exact stale_for_another_resource. Qed.
Print Assumptions C17_conditional_cache_needs_the_key.
