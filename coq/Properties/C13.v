(* C13 - The server never loses an event and its worker never dies.
   This file contains only the property theorems; each follows in a line or a few from the lemmas of
   Proofs/C13Proofs.v and is followed by Print Assumptions.
   [history events sch] is the observable history of the dispatcher model (Model/Dispatcher.v) started with an
   empty queue, the worker at get() and one request thread per element of [events] (the jobs it will
   deliver, in order), run under the schedule [sch] - ANY list of thread ids; [final events sch] is the state
   reached.  Nothing bounds the number of threads, events, keys or context switches. *)
From Coq Require Import List Arith.
Require Import BertE.Model.Dispatcher BertE.Spec.C13Spec BertE.Proofs.C13Proofs.
Import ListNotations.

(* An accepted request (2xx) is followed, after its arrival, by the start of an evaluation of an equal job -
   or an equal job is still waiting in the queue at the end of the run. *)
Theorem C13_no_loss : forall (events : list (list job)) (sch : list nat),
  no_loss (history events sch) (pending (final events sch)).
Proof.
  intros events sch i e k HA (en & Hn & Hm). pose proof (inv_marks _ _ (inv_reachable events sch) k en Hn) as H.
  rewrite Hm in H. destruct H as (e0 & HA0 & j & Hj & HG).
  injection (mark_at_fun _ _ _ _ HA HA0) as ->. destruct HG as [Hin|(k' & Hk & Hs)].
  - right. exists j. split; assumption.
  - left. exists k', j. repeat split; assumption.
Qed.
Print Assumptions C13_no_loss.

(* A request is dropped as a duplicate only if an equal job was seen WAITING at some turn between its arrival
   and the drop - never on the grounds of the running job or of finished jobs. *)
Theorem C13_dedup : forall (events : list (list job)) (sch : list nat),
  dedup (history events sch).
Proof.
  intros events sch a e k HA (en & Hn & Hm). pose proof (inv_marks _ _ (inv_reachable events sch) k en Hn) as H.
  rewrite Hm in H. destruct H as (e0 & HA0 & j & Hj & k' & en' & H1 & H2 & H3 & H4).
  injection (mark_at_fun _ _ _ _ HA HA0) as ->. exists k', en', j. repeat split; assumption.
Qed.
Print Assumptions C13_dedup.

(* Whatever the job raises: the worker thread never dies, and when process_task is over for j the marker is
   cleared, (j, status) is the most recent finished job, status is the exception's class name (the job's own
   status after a normal return), and the worker is back at get(). *)
Theorem C13_worker : forall (events : list (list job)) (sch : list nat),
  worker_ok (history events sch).
Proof. intros events sch. exact (w_ok _ _ (winv_reachable events sch)). Qed.
Print Assumptions C13_worker.

(* ... and it keeps serving: every started job is finished, except the one still being evaluated when the run
   is cut. *)
Theorem C13_served : forall (events : list (list job)) (sch : list nat),
  served (history events sch) (wflag_of (worker (final events sch))).
Proof.
  intros events sch k j Hs. destruct (w_served _ _ (winv_reachable events sch) k j Hs) as [F|H]; [left; exact F|right].
  destruct (worker (final events sch)); [destruct H|reflexivity|destruct H].
Qed.
Print Assumptions C13_served.

(* Weak fairness, in finite form: a job waiting at position p is started within any continuation that gives
   the worker [rank] = (turns left for the job in hand) + p * (turns per job) + 1 turns, whatever the request
   threads do in between.  Together with C13_no_loss: the "still waiting" disjunct eventually becomes a start. *)
Theorem C13_live : forall (events : list (list job)) (sch1 sch2 : list nat) (p : nat) (j : job),
  nth_error (pending (final events sch1)) p = Some j ->
  rank (final events sch1) p <= count_occ Nat.eq_dec sch2 0 ->
  exists k, length sch1 <= k /\ mark_at (history events (sch1 ++ sch2)) k (MStart j).
Proof. exact live_from_init. Qed.
Print Assumptions C13_live.

(* The executable monitors that the harness runs on the histories of the REAL code (extracted to OCaml) decide
   exactly the four clauses above, on any history whatsoever. *)
Theorem C13_monitors :
  (forall h pend, no_loss_b h pend = true <-> no_loss h pend)
  /\ (forall h, dedup_b h = true <-> dedup h)
  /\ (forall h, worker_b h = true <-> worker_ok h)
  /\ (forall h wend, served_b h wend = true <-> served h wend).
Proof. exact (conj no_loss_b_iff (conj dedup_b_iff (conj worker_b_iff served_b_iff))). Qed.
Print Assumptions C13_monitors.
