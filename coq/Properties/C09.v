(* C09 - Target cascade, ignored branches and fix versions are computed exactly.
   This file contains only the property theorems; each follows in a line or a few from the lemmas of
   Proofs/C09Proofs.v and is followed by Print Assumptions.

   [build order tags dst] is the model of BranchCascade.build for the discovery order [order] (Python
   iterates a set), [spec bs ts dst] the specification written from the statement over the *set* bs,
   [observe] keeps dst_branches / ignored_branches / target_versions / merge paths or the error class.

   The theorem holds of the code as repaired by f5b7e55 (a stabilization branch without its development
   branch is rejected with DevBranchDoesNotExist also next to a hotfix destination) and 08d216c (the fix
   version of development/x.y only skips the patch its untargeted stabilization branch holds); the two
   inputs that failed before are kept as c09_regression_attr / c09_regression_gap and in
   corpus/C09/00_regressions.json. *)
From Coq Require Import List String ZArith Permutation.
Require Import BertE.Model.Cascade BertE.Spec.C09Spec BertE.Proofs.C09Proofs.
Import ListNotations.

(* the full statement: for every number of branches and tags, every discovery order of every duplicate-free
   set, every destination of the set, the code computes what the statement says (result or error class) *)
Theorem C09_full_statement :
  C09_full <->
  (forall order bs tags dst, Permutation order bs -> NoDup bs -> In dst bs ->
     observe (build order tags dst) = spec bs (release_tags tags) dst).
Proof. exact (conj (fun H => H) (fun H => H)). Qed.
Print Assumptions C09_full_statement.

Theorem C09_full_holds : C09_full.
Proof. exact c09_full_proof. Qed.
Print Assumptions C09_full_holds.

(* the discovery order never matters (also a corollary of C09_full_holds, proved here directly for every
   destination, in the set or not, errors included) *)
Theorem C09_order_indep : forall o1 o2 tags dst,
  Permutation o1 o2 -> NoDup o1 -> build o1 tags dst = build o2 tags dst.
Proof.
  intros o1 o2 tags dst P ND. unfold build, build_parsed. rewrite (c09_add_all_perm o1 o2 (Some dst) P ND). reflexivity.
Qed.
Print Assumptions C09_order_indep.

Theorem C09_order_indep_nodst : forall o1 o2 tags,
  Permutation o1 o2 -> NoDup o1 -> build_nodst o1 tags = build_nodst o2 tags.
Proof.
  intros o1 o2 tags P ND. unfold build_nodst. rewrite (c09_add_all_perm o1 o2 None P ND). reflexivity.
Qed.
Print Assumptions C09_order_indep_nodst.

(* update_versions is evaluated tag by tag, yet whether it raises cannot depend on the order of the tags *)
Theorem C09_tag_order_error : forall ts1 ts2 c,
  NoDup (keys c) -> Permutation ts1 ts2 ->
  (exists c1, update_all ts1 c = Ok c1) <-> (exists c2, update_all ts2 c = Ok c2).
Proof.
  intros ts1 ts2 c ND P. rewrite !c09_update_all_ok, !BertE.Base.Lists.existsb_false_iff by exact ND.
  pose proof (Permutation_flat_map _ P : Permutation (somes ts1) (somes ts2)) as PS.
  split; intros H t Ht; apply H; [apply (Permutation_in _ (Permutation_sym PS)) | apply (Permutation_in _ PS)]; exact Ht.
Qed.
Print Assumptions C09_tag_order_error.

(* the explicit error constructors of the totalised model (AttributeError, TypeError, KeyError,
   NotASingleDevBranch) are never returned for an input of the quantifier *)
Theorem C09_error_classes : forall order bs tags dst,
  Permutation order bs -> NoDup bs -> In dst bs ->
  forall e, build order tags dst = Err e ->
  e = UnsupportedMultipleStabBranches \/ e = DeprecatedStabilizationBranch \/ e = DevBranchDoesNotExist.
Proof.
  intros order bs tags dst P ND Idst e E. pose proof (c09_full_proof order bs tags dst P ND Idst) as H.
  unfold c09_agrees in H. rewrite E in H. cbn [observe] in H. unfold spec in H.
  destruct (two_stabs bs); [injection H as ->; auto|].
  destruct (released_stab bs (release_tags tags) dst); [injection H as ->; auto|].
  destruct (orphan_stab bs); [injection H as ->; auto | discriminate H].
Qed.
Print Assumptions C09_error_classes.
