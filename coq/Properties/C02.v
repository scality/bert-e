(* C02 - A changeset lands on all of its target branches or none, even across crashes.
   Only the property theorems; each follows in a line or a few from the lemmas of Proofs/C02Proofs.v. *)
From Coq Require Import List.
Require Import BertE.Generated.Facts_C02 BertE.Model.Git BertE.Model.Flow BertE.Model.Publish BertE.Model.QueueValid
               BertE.Spec.C02Spec BertE.Proofs.GitProofs BertE.Proofs.FlowProofs BertE.Proofs.C08Proofs BertE.Proofs.C02Proofs.
Import ListNotations.

(* For every list of remote-mutating operations with at most one atomic push of all heads, every fault (a
   crash before / after any operation, any single ref refused from any operation on), every remote: all the
   names the job never pushes by name - the destination branches - have together their initial values, or
   together the values the uninterrupted job gives them. *)
Theorem C02_dest_atomic :
  forall s f ops r, count_pall ops <= 1 ->
  SwitchTogether (fun n => ~ In n (named ops)) r (publish s NoFault ops r) (publish s f ops r).
Proof. exact c02_dest_atomic. Qed.
Print Assumptions C02_dest_atomic.

(* the same with the switch made explicit: one boolean for all the names *)
Theorem C02_dest_atomic_bool :
  forall s f ops r, count_pall ops <= 1 ->
  exists b : bool, forall n, ~ In n (named ops) ->
    lookup (publish s f ops r) n = if b then lookup (publish s NoFault ops r) n else lookup r n.
Proof. exact (fun s f ops r => c02_dest_atomic_run s f ops 0 r). Qed.
Print Assumptions C02_dest_atomic_bool.

(* A named push changes only the names it lists, each only forward or by creation (C08's push_names_spec). *)
Theorem C02_names_only :
  forall s local names remote,
  wf_store s -> bounded s remote -> bounded s local ->
  let remote' := fst (step s remote (PNames local names)) in
  (forall n, ~ In n names -> lookup remote' n = lookup remote n) /\
  (forall n old, lookup remote n = Some old -> exists y, lookup remote' n = Some y /\ Anc s old y) /\
  (forall n y, lookup remote' n = Some y -> lookup remote n = Some y \/ (In n names /\ lookup local n = Some y)).
Proof.
  intros s local names remote W B Bl. destruct (c02_step_names s remote local names) as [-> | ->].
  - exact (push_names_spec s local names remote W B Bl).
  - apply pushed_refl, B.
Qed.
Print Assumptions C02_names_only.

(* merge_integration_branches on a clone: the tip of the source branch is an ancestor of the new tip of EVERY
   target (t0 contains w0 = the source, t_i contains t_{i-1}), for any number of targets and any strategy mix. *)
Theorem C02_landed_all :
  forall sg c (t0 w0 : name) (rest : list (name * name)) c' x,
  wf_clone c -> NoDup (t0 :: map fst rest) ->
  (forall w, In w (w0 :: map snd rest) -> ~ In w (t0 :: map fst rest)) ->
  lookup (refs c) w0 = Some x ->
  merge_integration sg c ((t0, w0) :: rest) = Some c' ->
  wf_clone c' /\
  forall t, In t (t0 :: map fst rest) -> exists y, lookup (refs c') t = Some y /\ Anc (st c') x y.
Proof. exact c02_landed_all. Qed.
Print Assumptions C02_landed_all.

(* ... hence, published by the one atomic push wherever it sits among the job's other operations: under every
   fault the remote keeps every target where it was, or has the source tip on every target. *)
Theorem C02_direct_merge_atomic :
  forall sg c (t0 w0 : name) (rest : list (name * name)) c' x pre post deleted f r,
  wf_clone c -> NoDup (t0 :: map fst rest) ->
  (forall w, In w (w0 :: map snd rest) -> ~ In w (t0 :: map fst rest)) ->
  lookup (refs c) w0 = Some x ->
  merge_integration sg c ((t0, w0) :: rest) = Some c' ->
  keys_nodup (refs c') ->
  count_pall pre = 0 -> count_pall post = 0 ->
  (forall t, In t (t0 :: map fst rest) -> ~ In t (named (pre ++ post))) ->
  let ops := pre ++ PAll (refs c') deleted :: post in
  let rf := publish (st c') f ops r in
  (forall t, In t (t0 :: map fst rest) -> lookup rf t = lookup r t) \/
  (forall t, In t (t0 :: map fst rest) -> landed (st c') rf x t = true).
Proof.
  intros sg c t0 w0 rest c' x pre post deleted f r W ND Dis Lx H Kn Cp Cq Nn.
  destruct (c02_landed_all sg c t0 w0 rest c' x W ND Dis Lx H) as [W' LA].
  exact (c02_atomic_push_lands (st c') (refs c') x _ pre post deleted f r (proj1 W') Kn LA Cp Cq Nn).
Qed.
Print Assumptions C02_direct_merge_atomic.

(* All-or-none of ANY pull request (tip c, targets ts never pushed by name) survives every fault. *)
Theorem C02_all_or_none :
  forall s f ops r c ts,
  count_pall ops <= 1 -> (forall t, In t ts -> ~ In t (named ops)) ->
  all_or_none s r c ts = true -> all_or_none s (publish s NoFault ops r) c ts = true ->
  all_or_none s (publish s f ops r) c ts = true.
Proof.
  intros s f ops r c ts C N.
  apply (c02_observable_kept (fun r => all_or_none s r c ts) ts s f ops r C N).
  intros ra rb. apply c02_all_or_none_ext.
Qed.
Print Assumptions C02_all_or_none.

(* Forward-port inclusion survives every fault if the initial and the uninterrupted final states have it. *)
Theorem C02_incl :
  forall s f ops r pairs,
  count_pall ops <= 1 ->
  (forall p, In p pairs -> ~ In (fst p) (named ops) /\ ~ In (snd p) (named ops)) ->
  incl_b (mkClone s r) pairs = true -> incl_b (mkClone s (publish s NoFault ops r)) pairs = true ->
  incl_b (mkClone s (publish s f ops r)) pairs = true.
Proof.
  intros s f ops r pairs C N.
  apply (c02_observable_kept (fun r => incl_b (mkClone s r) pairs) (map fst pairs ++ map snd pairs) s f ops r C).
  - intros n Hn. apply in_app_or in Hn as [Hn|Hn].
    + apply in_map_iff in Hn as (p & <- & Hp). apply (N p Hp).
    + apply in_map_iff in Hn as (p & <- & Hp). apply (N p Hp).
  - intros ra rb. apply c02_incl_b_ext.
Qed.
Print Assumptions C02_incl.

(* The statement itself (Spec/C02Spec.v), and the executable monitor is its decision procedure. *)
Theorem C02_atomic : C02_statement.
Proof.
  intros s ops f r prs pairs Sh S0 S1. apply Bool.andb_true_iff in Sh as [Hc Hn].
  apply PeanoNat.Nat.leb_le in Hc. rewrite forallb_forall in Hn.
  apply c02_state_ok_iff. apply c02_state_ok_iff in S0, S1. revert S0 S1.
  apply (c02_observable_kept (fun r => state_ok_b s r prs pairs) (protected_names prs pairs) s f ops r Hc).
  - intros n Hin Hm. specialize (Hn n Hin). apply Bool.negb_true_iff in Hn.
    apply (proj2 (mem_true n (named ops))) in Hm. congruence.
  - intros ra rb. apply c02_state_ok_ext.
Qed.
Print Assumptions C02_atomic.

Theorem C02_monitor_sound :
  forall s r prs pairs, state_ok_b s r prs pairs = true <-> StateOk s r prs pairs.
Proof. exact c02_state_ok_iff. Qed.
Print Assumptions C02_monitor_sound.

(* The one non-atomic publication that matters, add_to_queue's named push: a refused ref keeps its value and
   nothing but the listed names changes; a crash around it leaves the untouched or the complete state. *)
Theorem C02_reject_named_push :
  forall s local names r ref,
  mentions r (PNames local names) ref = true ->
  publish s (Reject 0 ref) [PNames local names] r =
    (if named_push_atomic then r else push_names s r local (without ref names)) /\
  lookup (publish s (Reject 0 ref) [PNames local names] r) ref = lookup r ref /\
  (forall n, ~ In n names -> lookup (publish s (Reject 0 ref) [PNames local names] r) n = lookup r n).
Proof.
  intros s local names r ref Hm.
  assert (E : publish s (Reject 0 ref) [PNames local names] r =
              (if named_push_atomic then r else push_names s r local (without ref names))).
  { unfold publish. cbn [run exec_one Nat.leb andb]. rewrite Hm. reflexivity. }
  split; [exact E|]. rewrite E. destruct named_push_atomic; [split; reflexivity|]. split.
  - apply push_names_untouched. unfold without. rewrite filter_In, PeanoNat.Nat.eqb_refl. intros [_ K]. discriminate K.
  - intros n Hn. apply push_names_untouched. intro H. apply Hn. exact (c02_without_incl _ _ _ H).
Qed.
Print Assumptions C02_reject_named_push.

Theorem C02_crash_around_push :
  forall s local names r,
  publish s (CrashBefore 0) [PNames local names] r = r /\
  publish s (CrashAfter 0) [PNames local names] r = fst (step s r (PNames local names)) /\
  (named_push_atomic = false -> fst (step s r (PNames local names)) = push_names s r local names).
Proof.
  intros s local names r. split; [reflexivity|]. split; [reflexivity|].
  intro E. cbn [step]. cbv zeta. rewrite E. reflexivity.
Qed.
Print Assumptions C02_crash_around_push.

(* Generated fact: every `git push` command of Repository.push_all carries --atomic (dropping it fails here). *)
Theorem C02_push_all_is_atomic : push_all_commands_atomic = true.
Proof. reflexivity. Qed.
Print Assumptions C02_push_all_is_atomic.

(* QueueCollection.validate refuses the half-queued states of the one-ref-at-a-time fault model: starting from
   queues validate accepts, if exactly one ref of the push is refused - q/<j> keeps its old value, or
   q/w/<p>/<j> is missing - and that update was a real change, validate reports errors (IncoherentQueues, hence
   QueueOutOfOrder for a pull request job, and no destination moves). *)
Theorem validate_rejects_half_queued :
  forall s paths qc p newtip j e t,
  validate s paths qc = [] -> In e qc -> q_ver e = j -> newtip j = Some t -> q_master e <> Some t ->
  validate s paths (half_master p newtip j qc) <> [] /\ validate s paths (half_int p newtip j qc) <> [].
Proof. exact c02_validate_rejects_half_queued. Qed.
Print Assumptions validate_rejects_half_queued.
