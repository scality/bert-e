(* C06 - The build gate requires a green build on every integration commit.
   This file contains only the property theorems; each follows in a line or a few from the lemmas of
   Proofs/C06Proofs.v (and GateProofs.v, JobSettingsProofs.v) and is followed by Print Assumptions. *)
From Coq Require Import List String Bool.
Require Import BertE.Model.BuildGate BertE.Spec.C06Spec BertE.Proofs.C06Proofs.
Require Import BertE.Model.Git BertE.Model.Flow BertE.Model.Gate.
Require Import BertE.Proofs.GitProofs BertE.Proofs.FlowProofs BertE.Proofs.GateProofs.
Import ListNotations.

(* For every number of integration branches and every vector of the five statuses: the outcome a
   caller observes (enter / author told "build failed" / silent wait) is the one the statement gives. *)
Theorem C06_gate : forall (bypass nokey : bool) (ss : list bstatus),
  ss <> [] -> forallb is_known ss = true ->
  verdict_of (gate bypass nokey ss) = Some (spec bypass nokey ss).
Proof. exact gate_meets_spec. Qed.
Print Assumptions C06_gate.

Theorem C06_pass_iff : forall (bypass nokey : bool) (ss : list bstatus),
  ss <> [] -> forallb is_known ss = true ->
  (gate bypass nokey ss = Pass <->
   bypass = true \/ nokey = true \/ forall s, In s ss -> s = SUCCESSFUL).
Proof. exact gate_pass_iff. Qed.
Print Assumptions C06_pass_iff.

(* Outside the hypotheses the real code raises; the model says so explicitly. *)
Theorem C06_error_branches :
  (forall ss, forallb is_known ss = false -> gate false false ss = KeyErr) /\ gate false false [] = EmptyErr.
Proof.
  split; [|reflexivity]. intros ss H. unfold gate. rewrite ranks_eq, H. reflexivity.
Qed.
Print Assumptions C06_error_branches.

(* The "fresh tips" clause (system level, over the commit-DAG model of Model/Git.v, Flow.v, Gate.v).
   update_integration_branches runs between the moment the statuses were reported and the moment
   check_build_status reads them on the tips of the integration branches.
   (1) When check_in_sync answers True and every integration branch includes the tip of its destination, the
       update changes nothing, whatever the merge strategies: same commits, same tips - so the statuses read
       afterwards are the ones reported on those very tips. *)
Theorem C06_update_noop_when_current :
  forall sg c src (pairs : list (name * name)),
  wf_clone c -> check_in_sync c src (src :: map fst pairs) = true ->
  (forall w d, In (w, d) pairs -> includes_tip c w d = true) ->
  update_integration sg c src pairs = Some c.
Proof. exact update_noop_when_current. Qed.
Print Assumptions C06_update_noop_when_current.

(* (2) Otherwise: [build] is the host's build table (None = nothing reported, answered as NOTSTARTED); a table
       that exists before the job only mentions commits of the store before the job.  Every integration branch
       then either kept its tip, or points to a commit created by this job - no entry in the table, the status
       read is NOTSTARTED - or was fast-forwarded to a commit that already was the tip of the source branch, of a
       destination or of an integration branch (so a report on the superseded tip is never what is read: the
       status read is the one of the new tip). *)
Theorem C06_new_tips_are_unbuilt :
  forall (build : cid -> option bstatus) sg c src pairs c',
  wf_clone c -> update_names_ok src pairs -> lookup (refs c) src <> None ->
  table_within build (st c) ->
  update_integration sg c src pairs = Some c' ->
  forall w d x x', In (w, d) pairs -> lookup (refs c) w = Some x -> lookup (refs c') w = Some x' ->
  x' = x \/
  (List.length (st c) <= x' /\ build x' = None /\ status_at NOTSTARTED build x' = NOTSTARTED) \/
  (x' < List.length (st c) /\ x' <> x /\ Anc (st c) x x' /\
   exists m, In m (src :: map fst pairs ++ map snd pairs) /\ lookup (refs c) m = Some x').
Proof. exact (new_tips_are_unbuilt NOTSTARTED). Qed.
Print Assumptions C06_new_tips_are_unbuilt.


(* ---- where the gate's settings come from (Model/JobSettings.v) ---------------------------------------------------
   `nokey` and `bypass` above are read from job.settings: the job's own map over the instance's settings, the options
   written with their defaults at the start of the evaluation.  An evaluation built without settings - what the
   webhook handlers and the API evaluation build - reads `build_key` from the instance; whatever a creator passes
   would take precedence for such a key (why the body of an API request must stay with the API job), but can never
   switch an option such as bypass_build_status on. *)
Require Import BertE.Model.JobSettings BertE.Proofs.JobSettingsProofs.

Theorem C06_settings_bare_job_reads_instance : forall opts inst k,
  ~ In k (map fst opts) -> jget k (init_settings opts (new_job None inst)) = sget k inst.
Proof. exact (fun opts inst => init_frame opts (new_job None inst)). Qed.
Print Assumptions C06_settings_bare_job_reads_instance.

Theorem C06_settings_options_start_at_defaults : forall opts, NoDup (map fst opts) ->
  forall s k d, In (k, d) opts -> jget k (init_settings opts s) = Some d.
Proof. exact init_resets. Qed.
Print Assumptions C06_settings_options_start_at_defaults.

Theorem C06_settings_given_takes_precedence : forall opts inst body k v,
  ~ In k (map fst opts) -> sget k body = Some v ->
  jget k (init_settings opts (new_job (Some body) inst)) = Some v.
Proof.
  intros opts inst body k v H B. rewrite (init_frame opts _ k H). unfold jget, new_job. cbn [j_top]. rewrite B.
  reflexivity.
Qed.
Print Assumptions C06_settings_given_takes_precedence.

Theorem C06_settings_given_never_sets_an_option : forall opts inst body k d,
  NoDup (map fst opts) -> In (k, d) opts ->
  jget k (init_settings opts (new_job (Some body) inst)) = Some d.
Proof. exact (fun opts inst body k d ND => init_resets opts ND (new_job (Some body) inst) k d). Qed.
Print Assumptions C06_settings_given_never_sets_an_option.

Theorem C06_settings_example :
  job_reads [("bypass_build_status"%string, 0); ("wait"%string, 0)] [("build_key"%string, 7); ("robot"%string, 8)]
            (Some [("bypass_build_status"%string, 1); ("build_key"%string, 9)]) [("wait"%string, 1)]
            ["bypass_build_status"%string; "wait"%string; "build_key"%string; "robot"%string; "unknown"%string]
  = [Some 0; Some 1; Some 9; Some 8; None].
Proof. exact job_reads_example. Qed.
Print Assumptions C06_settings_example.
