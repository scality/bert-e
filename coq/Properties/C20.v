(* C20 - Branch and queue admin jobs keep the repository well-formed or do nothing.
   This file contains only the property theorems; each follows in a line or a few from the lemmas of
   Proofs/C20Proofs.v and is followed by Print Assumptions.

   Model/AdminJobs.v: [create_branch fails use_queue r qs name branch_from], [delete_branch fails use_queue r qs
   name], [rebuild_queues fails op use_queue heads qs], [delete_queues fails use_queue heads] return the remote
   mutations in order and the outcome.  [r] = commit graph + remote heads + tags, [qs] = the queue collection,
   [fails] = which remote operation the server refuses, [apply_mutations r ms] = the remote afterwards.
   [view_ok uq r qs]: the commit graph is well formed, the queue collection is coherent (what
   QueueCollection.validate checks vertically), no queue version lies above the last development branch, and
   there is no queue when queues are disabled - hypotheses on reachable states, evaluated by the extracted
   checkers on every real state of the correspondence run.

   Three defects found by this check were repaired in /repo and the clauses are now proved in full; the witnesses
   stay in corpus/C20 and as Examples in Proofs/C20Proofs.v:
     acd4d74  an archived hotfix branch could be created again (its archive tag is
              "<x.y.z>.archived_hotfix_branch", create-branch looked for "<x.y.z>")                          - F11
     781d623  a development branch was deleted although stabilization/<0x.y.z> (leading zero, accepted by the API
              grammar and by create-branch) was live on its line: the test was a string prefix
     4b10341  rebuild-queues crashed (UnrecognizedBranchPattern) when the first q/* branch was a hotfix queue -
              also after the push of a create-branch job *)
From Coq Require Import List String NArith.
Require Import BertE.Model.Names BertE.Model.Git BertE.Model.Flow BertE.Model.AdminJobs BertE.Spec.C20Spec.
Require Import BertE.Proofs.GitProofs BertE.Proofs.FlowProofs BertE.Proofs.C20Proofs.
Import ListNotations.
Open Scope string_scope.

(* ---------------------------------------------------------------- create-branch *)

(* a successful create-branch leaves a remote that contains the new branch, satisfies the cascade rules and
   forward-port inclusion; the version was not archived; no queued pull request needs a new intermediate
   integration branch - for any server behaviour, any branch_from, any name *)
Theorem C20_create :
  forall fails uq r qs name bf ms, view_ok uq r qs ->
    create_branch fails uq r qs name bf = (ms, JobSuccess) ->
    let r' := apply_mutations r ms in
    exists d c, parse_dest name = Some d /\ In (name, c) (r_heads r') /\
      cascade_rules r' /\ incl_names r' /\ ~ archived archive_tag r d /\
      (d_kind d = KDev -> ~ needs_intermediate qs (dkey d)).
Proof. exact c20_create_proof. Qed.
Print Assumptions C20_create.

(* inclusion by name is the invariant of C01 on the remote seen as a clone of Model/Flow.v *)
Theorem C20_incl_is_C01 : forall r, incl_names r <-> Incl (later_ids r) (clone_of r).
Proof. exact c20_incl_clone_proof. Qed.
Print Assumptions C20_incl_is_C01.

(* what a built and validated cascade means, whatever the branching point was: the local validation is what makes
   a user-given branch_from (only checked against the last development branch) safe for the branches in between *)
Theorem C20_validate_sound : forall r,
  wf_store (r_st r) -> conforms (r_st r) (r_heads r) (tag_names r) -> incl_names r /\ cascade_rules r.
Proof. exact c20_validate_sound_proof. Qed.
Print Assumptions C20_validate_sound.

(* ---------------------------------------------------------------- delete-branch *)

(* a successful delete-branch leaves the archive tag on the old tip, the branch is gone, no pull request was
   queued on it and, for a development branch, no stabilization branch of its line was live *)
Theorem C20_delete :
  forall fails uq r qs name ms, (uq = false -> qs = []) ->
    delete_branch fails uq r qs name = (ms, JobSuccess) ->
    let r' := apply_mutations r ms in
    exists d tip, parse_dest name = Some d /\ assoc_str name (r_heads r) = Some tip /\
      In (archive_tag d, tip) (r_tags r') /\ ~ In name (head_names r') /\
      ~ has_queued_prs qs d /\ (d_kind d = KDev -> ~ live_stabilization r d).
Proof. exact c20_delete_proof. Qed.
Print Assumptions C20_delete.

(* ---------------------------------------------------------------- refusals *)

(* create-branch: a refusal precedes every remote operation, whatever the server does *)
Theorem C20_refuse_create : forall fails uq r qs name bf ms o,
  create_branch fails uq r qs name bf = (ms, o) -> refused o -> ms = [].
Proof.
  intros fails uq r qs name bf ms o H Ro.
  destruct (c20_create_not_success_proof _ _ _ _ _ _ _ _ H (c20_refused_not_success _ Ro)) as [E|(c & cr & _ & -> & _)];
    [exact E|]. destruct Ro as [E|[E|[w E]]]; discriminate E.
Qed.
Print Assumptions C20_refuse_create.

(* ... and when it ends otherwise without success after its push, the chained rebuild-queues crashed *)
Theorem C20_create_not_success : forall fails uq r qs name bf ms o,
  create_branch fails uq r qs name bf = (ms, o) -> o <> JobSuccess ->
  ms = [] \/ (exists c cr, ms = [MPushNew name c] /\ o = Crashed cr /\ uq = true).
Proof. exact c20_create_not_success_proof. Qed.
Print Assumptions C20_create_not_success.

Theorem C20_refuse_queues : forall fails op uq heads qs ms o,
  (rebuild_queues fails op uq heads qs = (ms, o) \/ delete_queues fails uq heads = (ms, o)) ->
  o <> JobSuccess -> ms = [].
Proof.
  intros fails op uq heads qs ms o. rewrite c20_delete_queues_rebuild.
  intros [H|H] No;
    (destruct (c20_rebuild_cases _ _ _ _ _ _ _ H) as [(_ & E & _)|[(_ & E & _)|(-> & _)]];
     [contradiction.. | reflexivity]).
Qed.
Print Assumptions C20_refuse_queues.

(* delete-branch: the q/<version> deletion and the archive tag can precede a refusal, the branch itself is
   never deleted; with a server that refuses nothing only the q/<version> deletion, for a hotfix branch whose
   archive tag already exists *)
Theorem C20_refuse_delete : forall fails uq r qs name ms o,
  delete_branch fails uq r qs name = (ms, o) -> refused o ->
  exists d tip, (ms = [] \/ parse_dest name = Some d /\ assoc_str name (r_heads r) = Some tip) /\
    let q := MDelete ("q/" ++ d_version d) in
    let t := MPushTag (archive_tag d) tip in
    (ms = [] \/ ms = [q] \/ ms = [t] \/ ms = [q; t]) /\
    ~ In (MDelete name) ms /\
    (never_fails fails -> ms = [] \/
       (ms = [q] /\ d_kind d = KHotfix /\ In (archive_tag d) (tag_names r) /\
        In ("q/" ++ d_version d) (head_names r))).
Proof. exact c20_refuse_delete_proof. Qed.
Print Assumptions C20_refuse_delete.

(* ---------------------------------------------------------------- queue jobs *)

Theorem C20_queues_rebuild : forall fails op uq r qs ms o,
  rebuild_queues fails op uq (r_heads r) qs = (ms, o) ->
  let r' := apply_mutations r ms in
  only_queues_removed r r' /\
  (o = JobSuccess ->
     uq = true /\ (forall h, In h (r_heads r') -> ~ is_queue_name (fst h)) /\
     (enqueued ms = queued_prs qs \/ (qnames (r_heads r) = [] /\ enqueued ms = []))) /\
  (o <> JobSuccess -> ms = []).
Proof. exact c20_queues_rebuild_proof. Qed.
Print Assumptions C20_queues_rebuild.

Theorem C20_queues_delete : forall fails uq r ms o,
  delete_queues fails uq (r_heads r) = (ms, o) ->
  let r' := apply_mutations r ms in
  only_queues_removed r r' /\ enqueued ms = [] /\
  (o = JobSuccess -> uq = true /\ forall h, In h (r_heads r') -> ~ is_queue_name (fst h)) /\
  (o <> JobSuccess -> ms = []).
Proof.
  intros fails uq r ms o. rewrite c20_delete_queues_rebuild. intro H.
  destruct (c20_queues_rebuild_proof _ _ _ _ _ _ _ H) as (O & S & F).
  split; [exact O|]. split; [|split; [intro E; destruct (S E) as (U & N & _); auto | exact F]].
  destruct o; try (rewrite F by discriminate; reflexivity). destruct (S eq_refl) as (_ & _ & [E|[_ E]]); exact E.
Qed.
Print Assumptions C20_queues_delete.

(* what is re-submitted is the queue order: each queued pull request once, older entries of every version first *)
Theorem C20_queue_order : forall qs,
  queues_coherent qs = true -> (forall e, In e qs -> ~ hotfix_queue e) -> queue_order qs (queued_prs qs).
Proof. exact c20_queue_order_proof. Qed.
Print Assumptions C20_queue_order.

(* with hotfix queues: nothing but queued pull requests is re-submitted *)
Theorem C20_queued_members : forall qs, queues_coherent qs = true ->
  forall p, In p (queued_prs qs) -> exists e, In e qs /\ In p (q_prs e).
Proof. exact (fun qs Co p => proj1 (c20_queued_prs_iff qs Co p)). Qed.
Print Assumptions C20_queued_members.

(* ---------------------------------------------------------------- the data of the code *)

Theorem C20_sites : forall o,
  (forall i, site_create o = Some i -> site_class "create_branch" i = Some (outcome_class o)) /\
  (forall i, site_delete o = Some i -> site_class "delete_branch" i = Some (outcome_class o)).
Proof. intro o. split; intros i; destruct o as [|[]| | |]; intros [= <-]; reflexivity. Qed.
Print Assumptions C20_sites.
