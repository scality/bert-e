(* C18 - Branch names are classified unambiguously and robot names round-trip.
   This file contains only the property theorems; each follows in a line or a few from the lemmas of
   Proofs/C18Proofs.v and is followed by Print Assumptions.

   classify      = branch_factory(None, name)  (Model/Names.v: ten scanners in the factory order of the code)
   is_kind       = the naming grammar            (Spec/C18Spec.v)
   LF            = "\n"; the grammar speaks about names without LF; what the code does with LF is C18_trailing_lf
   valid version = x | x.y | x.y.z | x.y.z.n, each a non-empty run of decimal digits without sign; leading
                   zeros are allowed: the version TEXT round-trips unchanged, major/minor/micro/hfrev carry
                   the values (so "007.1" gives version "007.1", major 7)
   valid source  = <known prefix>/<non-empty label without LF>  (= LF-free names the factory makes a FeatureBranch) *)
From Coq Require Import List String Ascii Bool NArith.
Require Import BertE.Base.Str BertE.Model.Names BertE.Spec.C18Spec BertE.Proofs.C18Proofs.
Import ListNotations.
Open Scope string_scope.

(* every ASCII name without line feed is classified exactly as the grammar prescribes (class and attributes) ... *)
Theorem C18_classify : forall s a, has_char LF s = false -> (classify s = Some a <-> is_kind s a).
Proof. exact classify_iff_grammar. Qed.
Print Assumptions C18_classify.

(* ... or rejected exactly when the grammar has no reading for it *)
Theorem C18_reject : forall s, has_char LF s = false -> (classify s = None <-> forall a, ~ is_kind s a).
Proof.
  intros s Hlf. split.
  - intros H a Ha. apply (classify_iff_grammar s a Hlf) in Ha. rewrite H in Ha. discriminate Ha.
  - intro H. destruct (classify s) as [a|] eqn:E; [|reflexivity].
    apply (classify_iff_grammar s a Hlf) in E. contradiction (H a E).
Qed.
Print Assumptions C18_reject.

(* the grammar gives at most one reading; its executable recogniser (the monitor run on the real code) is exact *)
Theorem C18_grammar_functional : forall s a b, is_kind s a -> is_kind s b -> a = b.
Proof.
  intros s a b Ha Hb. apply spec_classify_complete in Ha, Hb. rewrite Ha in Hb. injection Hb as ->. reflexivity.
Qed.
Print Assumptions C18_grammar_functional.

Theorem C18_monitor_exact : forall s a, spec_classify s = Some a <-> is_kind s a.
Proof. exact spec_classify_iff. Qed.
Print Assumptions C18_monitor_exact.

(* what "$" does in the code: a name followed by one line feed is read like the name itself *)
Theorem C18_trailing_lf : forall s, has_char LF s = false -> classify (s ++ String LF "") = classify s.
Proof.
  intros s H. rewrite (classify_spec s H), classify_chomp; rewrite chomp_app_lf; [reflexivity | exact H].
Qed.
Print Assumptions C18_trailing_lf.

(* for EVERY string: two of the ten classes accept the same name only for {Hotfix, LegacyHotfix} ... *)
Theorem C18_unambiguous : forall s k1 k2 a1 a2,
  match_class k1 s = Some a1 -> match_class k2 s = Some a2 ->
  k1 = k2 \/ (k1 = HotfixBranch /\ k2 = LegacyHotfixBranch) \/ (k1 = LegacyHotfixBranch /\ k2 = HotfixBranch).
Proof. exact classes_disjoint. Qed.
Print Assumptions C18_unambiguous.

(* ... and that overlap is resolved by the order of branch_factory in favour of HotfixBranch *)
Theorem C18_order_resolves : forall s k a, match_class k s = Some a ->
  classify s = Some a \/
  (k = LegacyHotfixBranch /\ exists b, classify s = Some b /\ bi_class b = HotfixBranch /\
                                       match_class HotfixBranch s = Some b).
Proof. exact classify_is_the_match. Qed.
Print Assumptions C18_order_resolves.

(* only development / stabilization / hotfix can be destinations (flags of the code, from the facts) *)
Theorem C18_dest : forall k, can_be_destination k = true <-> destination_kind k.
Proof. exact (fun k => proj1 (flags_iff k)). Qed.
Print Assumptions C18_dest.

Theorem C18_cascade_flags : forall k,
  (cascade_consumer k = true <-> destination_kind k) /\
  (cascade_producer k = true <-> k = FeatureBranch \/ k = DevelopmentBranch \/ k = StabilizationBranch) /\
  (destination_kind k -> allow_prefixes k = Some Facts_C18.all_prefixes).
Proof. exact (fun k => conj (proj1 (proj2 (flags_iff k))) (conj (proj2 (proj2 (flags_iff k))) (destination_allow_prefixes k))). Qed.
Print Assumptions C18_cascade_flags.

(* derived names parse back to the same pull-request id, version and source branch: every id, every
   valid version, EVERY valid source name (any label) *)
Theorem C18_roundtrip : forall (pr : N) (v src : string), valid_version v -> valid_source src ->
  (exists n a, print_w v src = Some n /\ classify n = Some a /\ roundtrip_w a v src) /\
  (exists n a, print_qw pr v src = Some n /\ classify n = Some a /\ roundtrip_qw a pr v src) /\
  (exists n a, print_q v = Some n /\ classify n = Some a /\ roundtrip_q a v).
Proof. exact roundtrip. Qed.
Print Assumptions C18_roundtrip.

(* the same with every attribute: numbers of the version, prefix, label and ticket of the source *)
Theorem C18_roundtrip_exact : forall pr v cs src p l t, version v cs -> source src p l t ->
  (exists n, print_w v src = Some n /\
             classify n = Some (info_derived IntegrationBranch None v cs src p l t)) /\
  (exists n, print_qw pr v src = Some n /\
             classify n = Some (info_derived QueueIntegrationBranch (Some pr) v cs src p l t)) /\
  (exists n, print_q v = Some n /\ classify n = Some (info_versioned QueueBranch v cs)).
Proof. exact roundtrip_exact. Qed.
Print Assumptions C18_roundtrip_exact.

(* the hypotheses of the round trip in the code's own terms *)
Theorem C18_valid_source : forall src, has_char LF src = false ->
  (valid_source src <-> exists a, classify src = Some a /\ bi_class a = FeatureBranch).
Proof.
  intros src Hlf. split.
  - intros (p & l & t & Hs). exists (info_feature src p l t). split; [|reflexivity].
    apply classify_of_kind. constructor; exact Hs.
  - intros (a & C & K). apply (classify_iff_grammar src a Hlf) in C.
    destruct C; try discriminate K. eexists _, _, _. eassumption.
Qed.
Print Assumptions C18_valid_source.

Theorem C18_valid_version : forall v, valid_version v <->
  has_char LF v = false /\ exists a, classify ("q/" ++ v) = Some a /\ bi_class a = QueueBranch.
Proof.
  intro v. split.
  - intros [cs Hv]. split; [exact (version_no_lf v cs Hv)|].
    exists (info_versioned QueueBranch v cs). split; [|reflexivity].
    apply classify_of_kind. constructor; exact Hv.
  - intros (Hlf & a & C & K). apply classify_iff_grammar in C; [|exact Hlf].
    inversion C as [| | | | | | | |v' cs Hv E|]; subst; try discriminate K. exists cs. exact Hv.
Qed.
Print Assumptions C18_valid_version.

(* handle_commit looks an integration branch up under its source branch *)
Theorem C18_commit_redirect : forall v src, valid_version v -> valid_source src ->
  exists n, print_w v src = Some n /\ get_parent_branch n = Some src.
Proof. exact commit_redirect. Qed.
Print Assumptions C18_commit_redirect.
