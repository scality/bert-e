(* C10 - Re-evaluation converges, never spams, and commands run once.
   This file contains only the property theorems; each follows in a line or a few from the lemmas of
   Proofs/C10Proofs.v and is followed by Print Assumptions.

   One evaluation of a pull request is [eval_step no_comment oracle comments next_id]: a function from the
   comment list to (ids of the command comments whose handler was entered, comments appended); the oracle is what
   the rest of the system says in that evaluation.  A history is any list of user comments, deletions of user
   comments and evaluations ([run_trace]).  [replies_always_posted] is computed from Generated/Facts_C10.v:
   every registered command always raises, and only messages whose dont_repeat_if_in_history is None, 0 or 1. *)
From Coq Require Import List String Bool Arith ZArith.
Require Import BertE.Generated.Facts_C10 BertE.Model.Notify BertE.Spec.C10Spec BertE.Proofs.C10Proofs.
Import ListNotations.
Open Scope string_scope.
Open Scope list_scope.

(* ---- never the same message twice in a row ------------------------------------------------------------ *)

(* Whatever an evaluation posts right after an equal comment of the robot is a message of a class that
   _send_comment never de-duplicates (policy None or 0), said by the non-command part of the evaluation: never
   a message with policy -1 / n >= 1, never the greeting, never the reply to a command. *)
Theorem C10_no_repeat : forall o cs next ex app,
  eval_step false o cs next = Some (ex, app) ->
  some_post_repeats cs app = true ->
  exists m, always_post (m_cls m) = true /\
            (In m (o_rest o) \/ o_opt o = Some m \/ o_early o = Some (Some m)).
Proof. exact c10_no_repeat_eval. Qed.
Print Assumptions C10_no_repeat.

(* With the Facts: these classes are exactly IntegrationDataCreated and PartialMerge (the policy-0 classes
   HelpMessage, StatusReport, CommandNotImplemented are raised by command handlers only). *)
Theorem C10_no_repeat_classes : forall o cs next ex app,
  oracle_okb o = true ->
  eval_step false o cs next = Some (ex, app) ->
  some_post_repeats cs app = true ->
  exists m, (m_cls m = "IntegrationDataCreated" \/ m_cls m = "PartialMerge") /\
            (In m (o_rest o) \/ o_opt o = Some m \/ o_early o = Some (Some m)).
Proof.
  intros o cs next ex app Hok H Hrep. destruct (c10_no_repeat_eval o cs next ex app H Hrep) as (m & Ha & Hsrc).
  exists m. split; [|exact Hsrc].
  apply andb_prop in Hok as [_ Hok]. rewrite forallb_forall in Hok. specialize (Hok _ (c10_said_in _ _ Hsrc)).
  apply existsb_exists in Hok as (c & Hc & E). apply String.eqb_eq in E. subst c.
  assert (Hin : In (m_cls m) unguarded_repeatable).
  { unfold unguarded_repeatable. exact (proj2 (filter_In _ _ _) (conj Hc Ha)). }
  rewrite c10_unguarded_classes in Hin. destruct Hin as [Hin|[Hin|[]]]; [left|right]; symmetry; exact Hin.
Qed.
Print Assumptions C10_no_repeat_classes.

(* Histories of any length without deletions in which the non-command parts only say de-duplicated messages:
   no two adjacent comments of the pull request are both the robot's and equal. *)
Theorem C10_no_adjacent_repeat : forall tr w w',
  plain_history tr = true -> twice_in_a_row (w_cs w) = false ->
  run_trace false w tr = Some w' -> twice_in_a_row (w_cs w') = false.
Proof. exact c10_no_adjacent_repeat. Qed.
Print Assumptions C10_no_adjacent_repeat.

(* The stronger form the code implements for dont_repeat_if_in_history = -1 (every template class except the
   answers on request and the informational ones): in every history - deletions of user comments included, any
   oracles - a message of such a class never equals the robot's previous comment, user comments in between or
   not. *)
Theorem C10_no_repeat_strict : forall tr w w',
  quiet_ok (robots (w_cs w)) = true -> run_trace false w tr = Some w' -> quiet_ok (robots (w_cs w')) = true.
Proof.
  intros tr w w'. apply (c10_run_trace_ind (fun _ w => quiet_ok (robots (w_cs w)) = true)); clear; cbn [w_cs].
  - intros u x _ w Hq. rewrite c10_robots_snoc. cbn [is_robot c_author author_eqb]. rewrite app_nil_r. exact Hq.
  - intros i _ w Hq. rewrite c10_robots_delete. exact Hq.
  - intros o _ w ex app Hq E. apply c10_eval_step_inv in E as (ms & _ & P). exact (c10_posts_strict _ _ _ _ P Hq).
Qed.
Print Assumptions C10_no_repeat_strict.

(* ---- a command comment is executed at most once ------------------------------------------------------- *)

(* once_full:    every history (comments, deletions, evaluations with oracles respecting the Facts) executes no
                 command comment twice.
   once_partial: the same for the histories in which every evaluation that executed a command posted something.
   With the Facts of the code as it is, replies_always_posted = false: the full statement is refuted by the
   history computed from the Facts (reset; its reply; reset again: the reply is suppressed as a duplicate and the
   command runs in every later evaluation - candidate F4); with the repaired table the full statement holds. *)
Theorem C10_once : if replies_always_posted then once_full else (~ once_full /\ once_partial).
Proof.
  destruct replies_always_posted eqn:Hsw.
  - exact (c10_once_full_of_switch Hsw).
  - exact (conj (c10_once_refuted_of_switch Hsw) c10_once_partial).
Qed.
Print Assumptions C10_once.

Theorem C10_once_partial : once_partial.
Proof. exact c10_once_partial. Qed.
Print Assumptions C10_once_partial.

Theorem C10_once_full_when_replies_posted : replies_always_posted = true -> once_full.
Proof. exact c10_once_full_of_switch. Qed.
Print Assumptions C10_once_full_when_replies_posted.

(* ---- re-evaluation converges (comment side) ------------------------------------------------------------- *)

(* Three evaluations in a row with nothing changing outside: the first in whatever state (its non-command part
   may say anything), the next two in a settled world (at most one message, of a de-duplicated class): the third
   appends no comment and executes no command.  Same switch as C10_once. *)
Theorem C10_converge : if replies_always_posted then converge_full else (~ converge_full /\ converge_partial).
Proof.
  destruct replies_always_posted eqn:Hsw.
  - exact (c10_converge_full_of_switch Hsw).
  - exact (conj (c10_converge_refuted_of_switch Hsw) c10_converge_partial).
Qed.
Print Assumptions C10_converge.

Theorem C10_converge_partial : converge_partial.
Proof. exact c10_converge_partial. Qed.
Print Assumptions C10_converge_partial.

(* ---- the settings a job sees do not depend on the jobs the instance processed before ------------------- *)

Theorem C10_instance : instance_independent settings_after.
Proof.
  intros earlier cl v H. unfold settings_after in *. rewrite c10_init_copies in *.
  destruct registry0 as [reg0|]; [|discriminate].
  destruct (after_jobs true reg0 earlier) as [reg|] eqn:A; [|discriminate].
  apply c10_jobs_keep_registry in A. subst reg. exact H.
Qed.
Print Assumptions C10_instance.

(* the same model without the copy in Reactor.init_settings leaks *)
Theorem C10_instance_needs_copy : leak_check = true.
Proof. vm_compute. reflexivity. Qed.
Print Assumptions C10_instance_needs_copy.

(* ---- data the statements rest on ---------------------------------------------------------------------- *)

Theorem C10_facts :
  unguarded_repeatable = ["IntegrationDataCreated"; "PartialMerge"] /\
  existsb (String.eqb "InitMessage") rest_classes = false /\
  forallb (fun e => match snd e with None => true | Some z => Z.leb (-1) z end) message_classes = true /\
  forallb (fun e => negb (fst (fst (snd e)))) commands = true /\
  init_settings_copies = true.
Proof.
  split; [exact c10_unguarded_classes|].
  (* the greeting is only constructed by send_greetings, which first checks that the robot never commented *)
  split; [vm_compute; reflexivity|].
  (* every dont_repeat_if_in_history is None or >= -1 (asserted by TemplateException.__init__ as well) *)
  split; [vm_compute; reflexivity|].
  (* no registered command is privileged (the model of the command loop does not look at privileges) *)
  split; [vm_compute; reflexivity|exact c10_init_copies].
Qed.
Print Assumptions C10_facts.
