(* Property theorems that rest on the control skeleton of the job handlers (Model/Pipeline.v): where each gate
   sits in an evaluation, what has (not) run when it refuses, when the repository is written.  Every statement
   quantifies over EVERY oracle - every combination of answers (returned / boolean / count / raised) the steps may
   give, position by position - and every configuration flag the handlers read.
   This file contains only the property theorems; each follows in a line or a few from the lemmas of
   Proofs/PipelineProofs.v and Proofs/EndToEndProofs.v and is followed by Print Assumptions.  The checks of the
   properties named in the theorems (C02 C03 C04 C06 C11 C12 C19) build this file and compare the skeleton with the
   real handlers on every job of their system histories. *)
From Coq Require Import List String Bool.
Require Import BertE.Model.Pipeline BertE.Proofs.PipelineProofs.
Import ListNotations.
Open Scope list_scope.

(* ---- C04 / C06 / C11 / C12 / C03: no pull request is queued or merged without every gate ------------------- *)

(* Every run of _handle_pull_request that reaches add_to_queue or merge_integration_branches has, BEFORE that
   step, asked every gate and got "go on" from each: early_checks, handle_comments, check_dependencies, the
   already-merged and source-exists tests, check_commit_diff, the cascade and its validation,
   check_branch_compatibility, jira_checks, the integration-branch steps and their push, check_approvals,
   check_build_status. *)
Theorem C04_C06_C11_C12_gates_before_landing : forall c o pos tr r,
  exec o pos (pr_inner c) = (tr, r) -> reaches lands tr = true ->
  exists pre s a post, tr = pre ++ (s, a) :: post /\ lands s = true /\ reaches lands pre = false /\
    forall g, In g gate_answers -> In g pre.
Proof.
  intros c o pos tr r H R.
  destruct (inner_landing_shape _ _ _ _ _ H R) as (q & insync & children & newly & needed & a & post & ->).
  exists (landing_prefix c q insync children newly needed), (landing_stage needed), a, post.
  split; [reflexivity|]. split; [destruct needed; reflexivity|].
  split; [apply landing_prefix_no_landing|].
  intros g Hg. rewrite <- (landing_prefix_gates c q insync children newly needed) in Hg.
  apply filter_In in Hg. apply Hg.
Qed.
Print Assumptions C04_C06_C11_C12_gates_before_landing.

(* the exact shape of such a run, from which the statement above is read off *)
Theorem landing_run_shape : forall c o pos tr r,
  exec o pos (pr_inner c) = (tr, r) -> reaches lands tr = true ->
  exists q insync children newly needed a post,
    tr = landing_prefix c q insync children newly needed ++ (landing_stage needed, a) :: post.
Proof. exact inner_landing_shape. Qed.
Print Assumptions landing_run_shape.

(* C04 "goes no further", C06, C07, C11 "each failure produces its own message and leaves the repository
   untouched", C12: whatever a step of the evaluation raises, the evaluation stops there - nothing runs after it -
   and the job ends with an exception.  (The one except clause of _handle_pull_request, around
   update_integration_branches, pushes the integration branches built so far on Conflict and re-raises.) *)
Theorem C04_C06_C07_C11_C12_refusal_is_final : forall c o pos tr r pre s kd n post,
  exec o pos (pr_inner c) = (tr, r) -> tr = pre ++ (s, ARaise kd n) :: post -> handled s = false ->
  post = [] /\ exists m, r = ORaise m.
Proof. exact inner_refusal_is_final. Qed.
Print Assumptions C04_C06_C07_C11_C12_refusal_is_final.

(* ... and the one exception: after update_integration_branches raised, exactly one thing runs when the exception
   is a Conflict - the push of the integration branches built so far - and the Conflict then goes on; on any other
   exception nothing runs. *)
Theorem conflict_handler : forall c o pos tr r pre kd n post,
  exec o pos (pr_inner c) = (tr, r) -> tr = pre ++ (SUpdate, ARaise kd n) :: post ->
  reaches (is_stage SUpdate) pre = false ->
  (n = "Conflict"%string -> exists a, post = [(SPushPartial, a)] /\ (a = AOk -> r = ORaise n)) /\
  (n <> "Conflict"%string -> post = [] /\ r = ORaise n).
Proof. exact inner_update_raise. Qed.
Print Assumptions conflict_handler.

(* C06: the two review / CI gates are the last things asked before the decision: between check_build_status and
   the landing step only build_queue_collection, is_needed and queues.validate / queues.delete run - nothing
   that could move an integration branch after its status was read. *)
Theorem C06_gate_is_last : forall c o pos tr r,
  exec o pos (pr_inner c) = (tr, r) -> reaches lands tr = true ->
  exists pre needed a post,
    tr = pre ++ [(SApprovals, AOk); (SBuildStatus, AOk)] ++ decide_pre c needed ++ (landing_stage needed, a) :: post.
Proof. exact inner_gates_are_last. Qed.
Print Assumptions C06_gate_is_last.

(* C11 "leaves the repository untouched": up to its call of jira_checks an evaluation of an open pull request
   has run exactly [jira_pre c] - no step that writes to the repository - and when jira_checks raises the
   evaluation ends there. *)
Theorem C11_untouched : forall c o pos tr r pre kd n post,
  exec o pos (pr_inner c) = (tr, r) -> declined c = false ->
  tr = pre ++ (SJira, ARaise kd n) :: post -> reaches (is_stage SJira) pre = false ->
  post = [] /\ (exists m, r = ORaise m) /\ reaches writes_repo tr = false /\ reaches lands tr = false.
Proof.
  intros c o pos tr r pre kd n post H D T P.
  destruct (inner_refusal_is_final _ _ _ _ _ _ _ _ _ _ H T eq_refl) as (-> & M).
  destruct (inner_before_jira _ _ _ _ _ _ _ _ H D T P) as (-> & W).
  subst tr. unfold jira_pre. rewrite D. auto.
Qed.
Print Assumptions C11_untouched.

(* C12: a held pull request (check_dependencies raises: wait, after_pull_request not merged) is not even cloned:
   no integration branch, no queue entry, no merge, nothing pushed. *)
Theorem C12_held_stops_before_clone : forall c o tr r,
  exec o 0 (pr_inner c) = (tr, r) ->
  (exists kd n, o 3 SDependencies = ARaise kd n) ->
  reaches writes_repo tr = false /\ reaches lands tr = false /\ ~ In SClone (stages tr).
Proof. exact inner_held. Qed.
Print Assumptions C12_held_stops_before_clone.

(* C12: a finished or foreign pull request (early_checks raises) runs nothing else: no greeting, no comment scan *)
Theorem C12_unhandled_runs_nothing : forall c o tr r kd n,
  exec o 0 (pr_inner c) = (tr, r) -> o 0 SEarlyChecks = ARaise kd n ->
  tr = [(SEarlyChecks, ARaise kd n)] /\ r = ORaise n.
Proof. intros c o tr r kd n. apply exec_call_raise. Qed.
Print Assumptions C12_unhandled_runs_nothing.

(* C12 / C10: the author is told (notify_user) exactly when the evaluation ended with a TemplateException; silent
   exceptions (NotMyJob, NothingToDo, the build waits) and internal ones produce no comment here. *)
Theorem C12_comment_iff_template : forall c o tr r,
  robot_authored c = false -> exec o 0 (pr_outer c) = (tr, r) ->
  (In SNotifyUser (stages tr) <-> exists n, o 0 SInner = ARaise ETemplate n).
Proof. exact outer_notifies_iff_template. Qed.
Print Assumptions C12_comment_iff_template.

(* ---- C02 / C03: the queue evaluation ------------------------------------------------------------------------- *)

(* C03: destination branches are moved by a queue evaluation (merge_queues) only after the queue collection was
   built and validated, and only for a non-empty selection. *)
Theorem C03_queue_merge_after_validation : forall o pos tr r,
  exec o pos queues_prog = (tr, r) -> reaches (is_stage SMergeQueues) tr = true ->
  exists n failed a post, n <> 0 /\ tr = queues_pre n failed ++ (SMergeQueues, a) :: post.
Proof.
  apply queues_reaching; [intros []; (reflexivity || discriminate)|]. intros n failed N.
  apply reaching_here. intros a o pos post r _. exists n, failed, a, post. auto.
Qed.
Print Assumptions C03_queue_merge_after_validation.

(* C02: the queue evaluation publishes once, at its very end: when its push is reached every selected pull
   request has been closed first, and the push is the last step (only the raise of Merged follows). *)
Theorem C02_queue_evaluation_publishes_once : forall o pos tr r,
  exec o pos queues_prog = (tr, r) -> reaches (is_stage SPushPrune) tr = true ->
  exists n failed a, n <> 0 /\
    tr = queues_pre n failed ++ (SMergeQueues, AOk) ::
         List.concat (List.repeat [(SCloseQueued, AOk); (SAddMergedQ, AOk)] n) ++ [(SPushPrune, a)].
Proof.
  apply queues_reaching; [intros []; (reflexivity || discriminate)|]. intros n failed N.
  apply reaching_call; [reflexivity|].
  apply reaching_times with (pre := [(SCloseQueued, AOk); (SAddMergedQ, AOk)]).
  { intros k Q K. do 2 (apply reaching_call; [reflexivity|]). exact K. }
  apply reaching_here. intros a o pos t r E. exists n, failed, a. split; [exact N|].
  destruct a; injection E as <- _; reflexivity.
Qed.
Print Assumptions C02_queue_evaluation_publishes_once.

Theorem C02_C03_queue_refusal_is_final : forall o pos tr r pre s kd n post,
  exec o pos queues_prog = (tr, r) -> tr = pre ++ (s, ARaise kd n) :: post -> handled s = false ->
  post = [] /\ exists m, r = ORaise m.
Proof. exact (strict_stops _ strict_queues). Qed.
Print Assumptions C02_C03_queue_refusal_is_final.

(* ---- C19 / C13: dispatch of a build report --------------------------------------------------------------------- *)

(* A commit event on a queue branch, with queues on, evaluates the queues and nothing else; any other commit event
   is handed to the pull-request handler (of the parent pull request), never to the queue evaluation. *)
Theorem C19_commit_dispatch : forall c o tr r n anyq,
  exec o 0 (commit_prog c) = (tr, r) -> o 0 SBranchesOfCommit = AN n anyq -> n <> 0 ->
  if use_queue c && anyq
  then stages tr = [SBranchesOfCommit; SMergeQueuesNested]
  else exists rest, stages tr = SBranchesOfCommit :: SGetPRs :: rest /\ ~ In SMergeQueuesNested rest.
Proof. exact commit_dispatch. Qed.
Print Assumptions C19_commit_dispatch.

(* ---- C04 / C06 end to end: the skeleton composed with the gate models ------------------------------------------ *)
Require Import BertE.Proofs.EndToEndProofs.
Require BertE.Model.Approvals BertE.Spec.C04Spec BertE.Model.BuildGate BertE.Spec.C06Spec.
Require BertE.Proofs.C04Proofs BertE.Proofs.C06Proofs.

(* When the two gate stages answer what Model/Approvals.v and Model/BuildGate.v compute from the gate inputs (every
   other step staying arbitrary), a pull-request evaluation that queues or merges implies the STATEMENT of C04 on
   those inputs: every review requirement of the specification holds. *)
Theorem C04_end_to_end : forall c o pos tr r i bypass nokey ss,
  gated o i bypass nokey ss ->
  exec o pos (pr_inner c) = (tr, r) -> reaches lands tr = true ->
  C04Spec.spec_pass i.
Proof.
  intros c o pos tr r i bypass nokey ss G E R.
  apply (proj1 (C04Proofs.c04_check_approvals_iff_spec i)).
  exact (proj1 (landing_implies_gates_pass _ _ _ _ _ _ _ _ _ G E R)).
Qed.
Print Assumptions C04_end_to_end.

(* ... and the statement of C06: every integration tip SUCCESSFUL, unless bypassed or no build key. *)
Theorem C06_end_to_end : forall c o pos tr r i bypass nokey ss,
  gated o i bypass nokey ss -> ss <> [] -> forallb C06Spec.is_known ss = true ->
  exec o pos (pr_inner c) = (tr, r) -> reaches lands tr = true ->
  bypass = true \/ nokey = true \/ forall s, In s ss -> s = BuildGate.SUCCESSFUL.
Proof.
  intros c o pos tr r i bypass nokey ss G N K E R.
  apply (proj1 (C06Proofs.gate_pass_iff bypass nokey ss N K)).
  exact (proj2 (landing_implies_gates_pass _ _ _ _ _ _ _ _ _ G E R)).
Qed.
Print Assumptions C06_end_to_end.
