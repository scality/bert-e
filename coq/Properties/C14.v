(* C14 - HTTP entry points enqueue work only for authorised callers.
   This file contains only the property theorems; each follows in a line or a few from the lemmas of
   Proofs/C14Proofs.v and is followed by Print Assumptions.
   [api_table], [form_table], [webhook_table], [other_routes] are Generated/Facts_C14.v: the route tables of the
   live Flask app (rule, methods, decorators found in the closure chain of each registered view, admin flag, job
   class, validator, form fields), regenerated on every run. *)
From Coq Require Import List String Ascii Bool ZArith.
Require Import BertE.Base.Str BertE.Model.Http BertE.Generated.Facts_C14 BertE.Spec.C14Spec BertE.Proofs.C14Proofs.
Import ListNotations.
Open Scope string_scope.

(* The registered routes: every API rule sits behind requires_auth with the admin flag of its class, and a view
   that creates a repository-changing job (by the specification's list of kinds) demands admin; every form sits
   behind requires_auth and demands admin when the endpoint it drives does; both webhooks sit behind
   requires_basic_auth; no other route names put_job; CSRF protection of the forms is on. *)
Theorem C14_table :
  (forall e, In e api_table ->
     exists a, ae_wrap e = WSession a /\ a = ae_cls_admin e /\
               forall k, ae_view e = VJob k -> repo_changing k = true -> a = true) /\
  (forall f, In f form_table ->
     exists a ep, fe_wrap f = WSession a /\ c14_endpoint_of api_table f = Some ep /\
                  forall k, ae_view ep = VJob k -> repo_changing k = true -> a = true) /\
  (forall h, In h webhook_table -> he_wrap h = WBasic) /\
  (forall o, In o other_routes -> oe_mentions_put_job o = false) /\
  csrf_enabled = true.
Proof.
  destruct c14_tables_checked as (Ta & Tf & Th & To & Tcsrf). apply andb_true_iff in Ta as [Ta _].
  unfold c14_others_ok in To. rewrite forallb_forall in Ta, Tf, To.
  split; [|split; [|split; [|split]]].
  - intros e He. destruct (c14_api_entry_ok_spec e (Ta e He)) as (a & Hw & Ha & Hk).
    exists a. repeat split; try assumption. intros k Hv. apply (Hk k Hv).
  - intros f Hf. exact (c14_form_entry_ok_spec _ f (Tf f Hf)).
  - intro h. exact (c14_hooks_ok_spec _ h Th).
  - intros o Ho. apply negb_true_iff, To, Ho.
  - exact Tcsrf.
Qed.
Print Assumptions C14_table.

(* Every API request (any rule, method, URL part, session, body): a job is enqueued only for a logged-in session,
   a repository-changing one only for an admin session, with valid parameters (the grammar of the specification,
   taken literally), and it carries exactly the URL parameter and JSON body of the request and the session's user. *)
Theorem C14_api_full : forall cfg rq j,
  o_job (handle_api api_table cfg rq) = Some j ->
  logged_in (rq_session rq) = true /\
  (repo_changing (j_kind j) = true -> is_admin (rq_session rq) = true) /\
  valid_params (j_kind j) (j_settings j) = true /\
  carries_exactly (rq_param rq) (rq_body rq) (session_user (rq_session rq)) j = true.
Proof. exact (c14_api_sound api_table c14_api_table_checked). Qed.
Print Assumptions C14_api_full.

(* A request without a logged-in session, or without admin rights to an endpoint that creates a
   repository-changing job, is refused: nothing enqueued, status >= 400 (or the router's 308). *)
Theorem C14_api_refusal : forall cfg rq,
  rq_method rq <> "OPTIONS" ->
  (logged_in (rq_session rq) = false \/
   exists k, c14_target api_table rq = Some k /\ repo_changing k = true /\ is_admin (rq_session rq) = false) ->
  refused (handle_api api_table cfg rq) = true.
Proof. exact (c14_api_refuses api_table c14_api_table_checked). Qed.
Print Assumptions C14_api_refusal.

(* Status and queue agree: 202 is answered only when a job was enqueued, and a job enqueued for a JSON-object
   body is answered 202. *)
Theorem C14_api_status : forall cfg rq,
  (o_status (handle_api api_table cfg rq) = 202%Z -> o_job (handle_api api_table cfg rq) <> None) /\
  (forall j, o_job (handle_api api_table cfg rq) = Some j -> (forall raw, rq_body rq <> BodyNonDict raw) ->
             o_status (handle_api api_table cfg rq) = 202%Z).
Proof.
  intros cfg rq. destruct (c14_handle_api_cases api_table cfg rq)
    as [(st & E & N)|(e0 & e & v & cls & u & _ & _ & _ & _ & _ & _ & _ & [(d & _ & E)|(raw & Hraw & _ & E)])];
    rewrite E; split.
  - intro H. destruct (N H).
  - discriminate.
  - discriminate.
  - reflexivity.
  - discriminate.
  - intros j _ Hb. destruct (Hb raw Hraw).
Qed.
Print Assumptions C14_api_status.

(* OBSERVATION OUTSIDE THE STATEMENT (the statement does not relate the status of an authorised request to the
   queue): "a job was enqueued -> the answer is 2xx" is false of the faithful model.  A non-object JSON body
   sent by an admin to DELETE /api/gwf/queues is answered 500 after the job was put in the queue (as_json fails
   on the settings).  Replayed on the implementation by corpus/C14/91-*.json; not a violation of C14. *)
Definition C14_status_full : Prop := forall cfg rq,
  o_job (handle_api api_table cfg rq) <> None -> (o_status (handle_api api_table cfg rq) < 300)%Z.
Theorem C14_status_refuted : ~ C14_status_full.
Proof.
  intro H.
  specialize (H c14_cfg0 (mk_request "/api/gwf/queues" "DELETE" None c14_admin (BodyNonDict "[1]"))).
  vm_compute in H. (* (Some _ = None -> False) -> Gt = Lt *)
  discriminate (H ltac:(discriminate)).
Qed.
Print Assumptions C14_status_refuted.

(* Management forms: a job created through a form needed a valid CSRF token and is a job the API creates for a
   request carrying the caller's own session - hence all the guarantees of C14_api_full. *)
Theorem C14_form : forall cfg fq j,
  o_job (handle_form form_table api_table cfg fq) = Some j ->
  fq_csrf_ok fq = true /\
  exists rq, rq_session rq = fq_session fq /\
    logged_in (rq_session rq) = true /\
    (repo_changing (j_kind j) = true -> is_admin (rq_session rq) = true) /\
    valid_params (j_kind j) (j_settings j) = true /\
    carries_exactly (rq_param rq) (rq_body rq) (session_user (rq_session rq)) j = true.
Proof.
  intros cfg fq j H. destruct (c14_form_sound _ _ _ _ _ H) as [Hc (rq & Hs & Hj)].
  split; [exact Hc|]. exists rq. split; [exact Hs | exact (c14_api_sound _ c14_api_table_checked cfg rq j Hj)].
Qed.
Print Assumptions C14_form.

Theorem C14_form_refusal : forall cfg fq, fq_method fq <> "OPTIONS" ->
  (logged_in (fq_session fq) = false \/
   exists k, c14_form_target form_table api_table fq = Some k /\ repo_changing k = true /\
             is_admin (fq_session fq) = false) ->
  hook_refused (handle_form form_table api_table cfg fq) = true.
Proof. exact (c14_form_refuses form_table api_table c14_form_table_checked). Qed.
Print Assumptions C14_form_refusal.

(* Webhooks: a job only with the configured credentials, for the configured repository, for a handled event,
   about the pull request / commit of the event; anything else is refused (status >= 400, nothing enqueued). *)
Theorem C14_webhook_bitbucket : forall cfg rq j,
  o_job (handle_bitbucket webhook_table cfg rq) = Some j ->
  creds_ok cfg (bb_creds rq) = true /\ bb_repo_ok cfg rq = true /\ bb_carries rq j = true /\
  exists key entity event, bb_event_key rq = Some key /\ split_char ":" key = [entity; event] /\
                           c14_bb_handled entity event.
Proof.
  intros cfg rq j H. apply (c14_hook_job _ _ _ _ _ _ _ c14_hooks_checked) in H as [Hc H].
  split; [exact Hc | exact (c14_bitbucket_view_job _ _ _ H)].
Qed.
Print Assumptions C14_webhook_bitbucket.

Theorem C14_webhook_github : forall cfg rq j,
  o_job (handle_github webhook_table cfg rq) = Some j ->
  creds_ok cfg (gh_creds rq) = true /\ gh_repo_ok cfg rq = true /\ gh_carries rq j = true /\
  exists ev, gh_event rq = Some ev /\ c14_gh_handled ev.
Proof.
  intros cfg rq j H. apply (c14_hook_job _ _ _ _ _ _ _ c14_hooks_checked) in H as [Hc H].
  split; [exact Hc | exact (c14_github_view_job _ _ _ H)].
Qed.
Print Assumptions C14_webhook_github.

Theorem C14_webhook_refusal : forall cfg,
  (forall rq, bb_method rq <> "OPTIONS" ->
     creds_ok cfg (bb_creds rq) = false \/ bb_repo_ok cfg rq = false ->
     hook_refused (handle_bitbucket webhook_table cfg rq) = true) /\
  (forall rq, gh_method rq <> "OPTIONS" ->
     creds_ok cfg (gh_creds rq) = false \/ gh_repo_ok cfg rq = false ->
     hook_refused (handle_github webhook_table cfg rq) = true).
Proof.
  split; intros rq Hm [H|H]; apply (c14_hook_refuses _ _ _ _ _ _ c14_hooks_checked Hm); auto;
    right; [exact (c14_bitbucket_view_wrong_repo _ _ H) | exact (c14_github_view_wrong_repo _ _ H)].
Qed.
Print Assumptions C14_webhook_refusal.

(* The two regular expressions accept exactly the grammar of the specification. *)
Theorem C14_regex : forall s,
  re_branch s = branch_wf s /\ re_branch_from s = branch_from_wf s.
Proof. exact (fun s => conj (c14_re_branch_spec s) (c14_re_branch_from_spec s)). Qed.
Print Assumptions C14_regex.

(* OAuth login: a session is opened only for an identified member of the organization (when one is configured),
   under the lower-cased handle, flagged admin exactly when that handle is a configured admin. *)
Theorem C14_oauth : forall org admins username email,
  oauth_spec org admins username email (handle_authorize org admins username email) = true.
Proof. exact c14_oauth_post. Qed.
Print Assumptions C14_oauth.
