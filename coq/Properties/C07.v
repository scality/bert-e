(* C07 - Only the right people can switch options on through comments.
   This file contains only the property theorems; each follows in a line or a few from the lemmas of
   Proofs/C07Proofs.v (the last four: Proofs/AuthorOptsProofs.v) and is followed by Print Assumptions.
   [registry] is Generated/Facts_C07.v (the live Reactor registry), [cmdline] the options granted on the command line (they are the defaults),
   comment lists and texts are arbitrary. *)
From Coq Require Import List String Bool.
Require Import BertE.Base.Str BertE.Base.C07Str BertE.Generated.Facts_C07
               BertE.Model.Reactor BertE.Spec.C07Spec BertE.Proofs.C07Proofs.
Import ListNotations.
Open Scope string_scope.

(* The registry says what the statement says: exactly the bypass_* options are privileged, exactly
   approve is author-only (and there are such options). *)
Theorem C07_registry :
  (forall e, In e registry -> is_option e = true ->
     e_priv e = privileged_keyword (e_key e) /\ e_auth e = author_only_keyword (e_key e))
  /\ existsb (fun e => is_option e && privileged_keyword (e_key e)) registry = true
  /\ existsb (fun e => is_option e && author_only_keyword (e_key e)) registry = true.
Proof. split; [exact (fun e => c07_flags registry e c07_registry_flags) | split; vm_compute; reflexivity]. Qed.
Print Assumptions C07_registry.

(* Clause 1.  Whatever handle_comments ends in (return or exception), a bypass_* option differs in
   job.settings from its default only if some comment addressed to the robot names it and was written
   by a configured admin who is not the author of the pull request. *)
Theorem C07_priv : forall cmdline robot admins pr_author cs o,
  privileged_keyword o = true ->
  get_setting o (settings_of (handle_comments registry cmdline robot admins pr_author cs))
    <> get_setting o (init_settings registry cmdline) ->
  exists c, In c cs /\ addressed robot (c_text c) = true /\ names robot (c_text c) o = true
            /\ In (c_author c) admins /\ c_author c <> pr_author.
Proof.
  intros cmdline robot admins pr_author cs o HP Hne.
  destruct (c07_changed_witness registry robot admins pr_author o c07_registry_ok cmdline cs
              (fun c => is_privileged admins pr_author (c_author c))) as (c & I & H1 & H2 & H3); [|exact Hne|].
  { intros c E e D IO. destruct (c07_dispatch_some _ _ _ D) as [I K].
    rewrite (proj1 (c07_flags registry e c07_registry_flags I IO)), K, HP, E. reflexivity. }
  apply andb_true_iff in H3 as [H3 H4]. exists c. repeat split; try assumption.
  - apply mem_str_In. exact H3.
  - apply String.eqb_neq, negb_true_iff. exact H4.
Qed.
Print Assumptions C07_priv.

(* ... and approve only if the author wrote it. *)
Theorem C07_auth : forall cmdline robot admins pr_author cs o,
  author_only_keyword o = true ->
  get_setting o (settings_of (handle_comments registry cmdline robot admins pr_author cs))
    <> get_setting o (init_settings registry cmdline) ->
  exists c, In c cs /\ addressed robot (c_text c) = true /\ names robot (c_text c) o = true
            /\ c_author c = pr_author.
Proof.
  intros cmdline robot admins pr_author cs o HA Hne.
  destruct (c07_changed_witness registry robot admins pr_author o c07_registry_ok cmdline cs
              (fun c => (c_author c =? pr_author)%string)) as (c & I & H1 & H2 & H3); [|exact Hne|].
  { intros c E e D IO. destruct (c07_dispatch_some _ _ _ D) as [I K].
    rewrite (proj2 (c07_flags registry e c07_registry_flags I IO)), K, HA, E. apply orb_true_r. }
  exists c. repeat split; try assumption. apply String.eqb_eq. exact H3.
Qed.
Print Assumptions C07_auth.

(* Clause 2.  If some comment is an option request (in the grammar, first keyword not a command) with
   an unknown keyword, a bypass_* from somebody who is not an admin-not-author or approve from
   somebody who is not the author, handle_comments raises one of the four explanations. *)
Theorem C07_block : forall cmdline robot admins pr_author cs,
  must_block robot (option_names registry) (command_names registry) admins pr_author cs = true ->
  exists cls s, handle_comments registry cmdline robot admins pr_author cs = Err (EMsg cls) s
                /\ blocking_class cls = true.
Proof.
  intros cmdline robot admins pr_author cs MB. unfold handle_comments, options_result. change ("@" ++ robot) with (address robot).
  pose proof (c07_options_phase_walk registry robot admins pr_author c07_registry_ok c07_registry_flags
                c07_registry_unique cs _ (c07_init_apv cmdline)) as W.
  destruct (options_phase registry (address robot) admins pr_author cs _) as [s|[cls|n] s].
  - rewrite (proj1 (proj2 W)) in MB. discriminate MB.
  - exists cls, s. split; [reflexivity | exact (proj1 W)].
  - discriminate (proj1 W).
Qed.
Print Assumptions C07_block.

(* ... and it is the explanation that corresponds to the first offending keyword when everything
   before it is a well-formed request the writer may make. *)
Theorem C07_block_exact : forall cmdline robot admins pr_author cs cls,
  expected_block robot (option_names registry) (command_names registry) admins pr_author cs = Some cls ->
  exists s, handle_comments registry cmdline robot admins pr_author cs = Err (EMsg cls) s.
Proof.
  intros cmdline robot admins pr_author cs cls H. unfold handle_comments, options_result. change ("@" ++ robot) with (address robot).
  pose proof (c07_options_phase_walk registry robot admins pr_author c07_registry_ok c07_registry_flags
                c07_registry_unique cs _ (c07_init_apv cmdline)) as W.
  destruct (options_phase registry (address robot) admins pr_author cs _) as [s|e s].
  - rewrite (proj2 (proj2 W)) in H. discriminate H.
  - rewrite (proj2 W cls H). exists s. reflexivity.
Qed.
Print Assumptions C07_block_exact.

(* Clause 3.  A comment that is not addressed to the robot never changes an option (the outcome of
   the option loop is the same without it), and the whole outcome is the same without it unless the
   robot wrote it.  Any registry. *)
Theorem C07_unaddressed : forall reg cmdline robot admins pr_author c1 x c2,
  addressed robot (c_text x) = false ->
  options_result reg cmdline robot admins pr_author (c1 ++ x :: c2)
    = options_result reg cmdline robot admins pr_author (c1 ++ c2)
  /\ (c_author x <> robot ->
      handle_comments reg cmdline robot admins pr_author (c1 ++ x :: c2)
      = handle_comments reg cmdline robot admins pr_author (c1 ++ c2)).
Proof. exact c07_unaddressed. Qed.
Print Assumptions C07_unaddressed.

(* The form of DESIGN.md (whole outcome, whoever wrote the text) is false of the faithful model: a
   message of the robot ends the command scan, removing it exposes older commands.  No option is
   involved; C07_unaddressed above is the strongest true part. *)
Definition C07_unaddressed_full : Prop :=
  forall cmdline robot admins pr_author c1 x c2, addressed robot (c_text x) = false ->
    handle_comments registry cmdline robot admins pr_author (c1 ++ x :: c2)
    = handle_comments registry cmdline robot admins pr_author (c1 ++ c2).
Theorem C07_unaddressed_refuted : ~ C07_unaddressed_full.
Proof.
  intro H.
  specialize (H [] "robot" ["admin"] "author" [mk_comment "other" "@robot help"]
                (mk_comment "robot" "Here you are") [] eq_refl).
  vm_compute in H. discriminate H.
Qed.
Print Assumptions C07_unaddressed_refuted.

(* ---- "... or is granted by per-author settings" (Model/AuthorOpts.v) ---------------------------------------------
   The gate models take "the settings grant this bypass to the author" as an input.  That input is what the loader of
   the `pr_author_options` section and PullRequestJob.author_bypass make of the section: for every list of bypass
   names (pr_author_bypass_list is the live PrAuthorsOptions.BYPASS_LIST), every section with distinct users that the
   loader accepts, every author and every name, the grant is in effect exactly when the name is listed under that
   author; other authors' entries change nothing; and the loader refuses exactly the sections that list a name outside
   BYPASS_LIST. *)
(* required here and not at the head: Model/AuthorOpts.v has a mem_str and an assoc of its own, which would hide
   those of Base/Str.v in the proofs above *)
Require Import BertE.Model.AuthorOpts BertE.Proofs.AuthorOptsProofs.

Theorem C07_author_grants_exact : forall names cfg tb,
  ao_load names cfg = Loaded tb -> NoDup (map fst cfg) ->
  forall a k, ao_granted tb a k = true <-> exists l, In (a, l) cfg /\ In k l.
Proof. exact load_exact. Qed.
Print Assumptions C07_author_grants_exact.

Theorem C07_author_grants_frame : forall names cfg cfg' tb tb' a,
  ao_load names cfg = Loaded tb -> ao_load names cfg' = Loaded tb' ->
  NoDup (map fst cfg) -> NoDup (map fst cfg') ->
  (forall l, In (a, l) cfg <-> In (a, l) cfg') ->
  forall k, ao_granted tb a k = ao_granted tb' a k.
Proof.
  intros names cfg cfg' tb tb' a L L' ND ND' Same k. apply eq_true_iff_eq.
  rewrite (load_exact names cfg tb L ND), (load_exact names cfg' tb' L' ND').
  split; intros (l & H & K); exists l; (split; [apply Same; exact H | exact K]).
Qed.
Print Assumptions C07_author_grants_frame.

Theorem C07_author_grants_refusal : forall names cfg,
  (exists e, ao_load names cfg = LoadError e) <-> exists u l k, In (u, l) cfg /\ In k l /\ ~ In k names.
Proof.
  intros names cfg. pose proof (load_cases names cfg) as C. split.
  - intros [e H]. rewrite H in C. destruct C as (u & l & R). exists u, l, e. exact R.
  - intros (u & l & k & Hin & Hk & Hn). destruct (ao_load names cfg) as [e|tb]; [exists e; reflexivity|].
    contradiction (Hn (C u l k Hin Hk)).
Qed.
Print Assumptions C07_author_grants_refusal.

Theorem C07_author_grants_example :
  ao_outcome ["bypass_a"; "bypass_b"; "bypass_c"]
             [("svc-bot", ["bypass_b"; "bypass_a"]); ("carol", ["bypass_c"])] ["svc-bot"; "carol"; "car"; "bot"]
  = inr [["bypass_a"; "bypass_b"]; ["bypass_c"]; []; []].
Proof. exact two_authors. Qed.
Print Assumptions C07_author_grants_example.
