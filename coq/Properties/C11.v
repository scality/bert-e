(* C11 - The ticket gate admits a pull request exactly when its Jira issue fits.
   This file contains only the property theorems; each is derived in a few lines from the lemmas of
   Proofs/C11Proofs.v, or evaluated on the generated facts, and is followed by Print Assumptions.

   jira_checks      = bert_e/workflow/gitwaterflow/jira.py jira_checks on a source branch classified by
                      branch_factory (Model/Names.v classify), destination classes, expected versions and a
                      Jira server table (Model/Jira.v)
   spec / admitted  = the statement (Spec/C11Spec.v); version forms by the grammar of C18
   verdict_of       = exception class -> message of the statement (one class per failure)
   lf_free          = the name contains no line feed (what the code does with one is C11_trailing_lf)
   server tickets   = a Jira server holding exactly these tickets (404 for any other key)
   The readings fixed where the statement leaves a choice are listed at the top of Spec/C11Spec.v. *)
From Coq Require Import List String Ascii Bool ZArith.
Require Import BertE.Base.Str BertE.Model.Names BertE.Generated.Facts_C11 BertE.Model.Jira BertE.Spec.C11Spec.
Require Import BertE.Proofs.C11Proofs.
Import ListNotations.
Open Scope string_scope.

(* For EVERY source branch name that the factory classifies as a feature branch, every settings value
   (bypass sources, bypass_prefixes, jira_keys / e-mail / URL, prefixes, disable_version_checks), every list
   of destination classes, every list of expected versions and every table of tickets (any fixVersions):
   the gate raises exactly the message the statement prescribes, or lets the pull request through. *)
Theorem C11_full : forall cfg src a targets expected tickets,
  classify src = Some a -> bi_class a = FeatureBranch ->
  Forall lf_free expected -> tickets_lf_free tickets ->
  option_map verdict_of (jira_checks_name cfg src targets expected (server tickets)) =
  Some (Some (spec cfg a (map ticketless targets) expected tickets)).
Proof.
  intros cfg src a targets expected tickets Hc Hk He Ht.
  unfold jira_checks_name, jira_checks. rewrite Hc. cbn [option_map]. f_equal.
  apply gate_meets_spec; [exact (classify_feature_shaped src a Hc Hk) | exact He | exact Ht].
Qed.
Print Assumptions C11_full.

(* the same for arbitrary per-target "accepts ticketless pull requests" flags (the flags of the code are
   all false today: Facts_C11.ticketless_flags) *)
Theorem C11_full_flags : forall cfg a flags expected tickets,
  feature_shaped a -> Forall lf_free expected -> tickets_lf_free tickets ->
  verdict_of (jira_checks_flags cfg a flags expected (server tickets)) = Some (spec cfg a flags expected tickets).
Proof. exact gate_meets_spec. Qed.
Print Assumptions C11_full_flags.

Theorem C11_feature_shape : forall src a,
  classify src = Some a -> bi_class a = FeatureBranch -> feature_shaped a.
Proof. exact classify_feature_shaped. Qed.
Print Assumptions C11_feature_shape.

(* "exactly when": the specification admits iff bypassed, or prefix bypassed, or Jira not configured, or the
   ticket named by the branch exists, is of a configured project and type, and its fix versions fit *)
Theorem C11_admit_iff : forall cfg a accepts expected tickets,
  spec cfg a accepts expected tickets = Admit <-> admitted cfg a accepts expected tickets.
Proof. exact spec_admit_iff. Qed.
Print Assumptions C11_admit_iff.

(* every refusal names a requirement that really fails *)
Theorem C11_refusal_sound : forall cfg a accepts expected tickets r,
  spec cfg a accepts expected tickets = Refuse r ->
  bypassed cfg = false /\ prefix_bypassed cfg a = false /\ configured cfg = true /\
  match r with
  | NoTicket => named_ticket a = None /\ exists b, In b accepts /\ b = false
  | TicketNotFound => exists key project, named_ticket a = Some (key, project) /\ find_ticket key tickets = None
  | WrongProject => exists key project, named_ticket a = Some (key, project) /\ ~ In project (s_jira_keys cfg)
  | WrongIssueType => exists key project i, named_ticket a = Some (key, project) /\
                        find_ticket key tickets = Some i /\ s_prefixes cfg <> [] /\
                        ~ In (iss_type i) (map fst (s_prefixes cfg))
  | WrongFixVersions => exists key project i, named_ticket a = Some (key, project) /\
                        find_ticket key tickets = Some i /\ s_disable_version_checks cfg = false /\
                        ~ versions_fit (iss_fix_versions i) expected
  end.
Proof.
  intros cfg a accepts expected tickets r H.
  destruct (gate_applies cfg a) eqn:G; [|rewrite (spec_gate_off _ _ _ _ _ G) in H; discriminate H].
  pose proof (spec_when_gate_applies cfg a accepts expected tickets G) as T. rewrite H in T.
  apply gate_applies_true in G as (B & P & C). repeat split; assumption.
Qed.
Print Assumptions C11_refusal_sound.

(* the executable version test of the specification is the declarative one *)
Theorem C11_versions_meaning : forall fix_versions expected,
  versions_fitb fix_versions expected = true <-> versions_fit fix_versions expected.
Proof. exact versions_fitb_iff. Qed.
Print Assumptions C11_versions_meaning.

(* the two regular expressions of check_fix_versions accept exactly x.y.z / x.y.z.0 and x.y.z.n *)
Theorem C11_filters : forall v, lf_free v ->
  (vfilter_match v = true <-> unsuffixed v) /\ (hf_filter_match v = true <-> hotfix_version v).
Proof. exact (fun v H => conj (vfilter_unsuffixed v H) (hf_filter_hotfix v H)). Qed.
Print Assumptions C11_filters.

Theorem C11_trailing_lf : forall v, lf_free v -> vfilter_match (v ++ String LF "") = vfilter_match v.
Proof.
  intros v H. apply eq_true_iff_eq. rewrite (vfilter_unsuffixed v H). apply vfilter_snoc_iff.
Qed.
Print Assumptions C11_trailing_lf.

(* each failure has its own message: five exception classes, all posted as templates, pairwise different
   codes and templates (read from the live classes) *)
Theorem C11_own_message :
  (forall r, exists code tpl, message_of r = Some (code, (tpl, "template"))) /\
  (forall r1 r2 c1 t1 k1 c2 t2 k2, r1 <> r2 ->
     message_of r1 = Some (c1, (t1, k1)) -> message_of r2 = Some (c2, (t2, k2)) -> c1 <> c2 /\ t1 <> t2).
Proof.
  split.
  - intro r. pose proof (messages_are_templates r) as H.
    destruct (message_of r) as [[c [t k]]|]; [subst k; eauto | destruct H].
  - intros r1 r2 c1 t1 k1 c2 t2 k2 Hne H1 H2. pose proof (messages_differ r1 r2 Hne) as H.
    rewrite H1, H2 in H. apply orb_false_iff in H as [Hc Ht].
    split; [apply Z.eqb_neq, Hc | apply String.eqb_neq, Ht].
Qed.
Print Assumptions C11_own_message.

(* "leaves the repository untouched": in _handle_pull_request (call list read from the AST) jira_checks is an
   unconditional top-level step, occurs once, and every step that creates or moves branches, pushes or opens
   pull requests occurs after it and never before; a raise in the gate ends the handler there *)
Theorem C11_untouched :
  In "jira_checks" handler_unconditional /\
  exists pre post, handler_calls = (pre ++ "jira_checks" :: post)%list /\
    ~ In "jira_checks" post /\
    forall step, In step repo_writing_steps -> ~ In step pre /\ In step post.
Proof.
  (* jira_checks is the 19th call of the handler: the witnesses are what stands before and after it.  This is
     about the text of the handler; Properties/Pipeline.v has the theorem of the same name about its runs *)
  split; [apply mem_str_In; reflexivity|].
  exists (firstn 18 handler_calls), (skipn 19 handler_calls).
  split; [reflexivity|]. split; [apply mem_str_false; reflexivity|].
  assert (C : forallb (fun s => negb (mem_str s (firstn 18 handler_calls)) && mem_str s (skipn 19 handler_calls))
                      repo_writing_steps = true) by reflexivity.
  intros step Hs. apply (proj1 (forallb_forall _ _) C), andb_true_iff in Hs as [Hpre Hpost].
  split; [apply mem_str_false, negb_true_iff, Hpre | apply mem_str_In, Hpost].
Qed.
Print Assumptions C11_untouched.

(* data of the code the theorems rest on: the option exists, is privileged (admin option) and not
   author-only, is off by default and on from the command line, is a per-author bypass; helper order *)
Theorem C11_pinned :
  assoc_s option_name option_registry = Some (true, false) /\
  assoc_s option_name cmdline_wiring = Some (false, true) /\
  mem_str option_name bypass_list = true /\
  gate_calls = ["bypass_jira_check"; "check_issue_reference"; "get_jira_issue"; "check_project";
                "check_issue_type"; "check_fix_versions"].
Proof. exact (conj option_registered (conj option_wired (conj option_in_bypass_list eq_refl))). Qed.
Print Assumptions C11_pinned.

(* today's class flags: no destination accepts ticketless pull requests, so with the gate on a branch
   without ticket is always refused, naming the first target *)
Theorem C11_ticket_mandatory_today : forall cfg a targets expected db,
  feature_shaped a -> gate_applies cfg a = true -> named_ticket a = None -> targets <> [] ->
  jira_checks cfg a targets expected db = MissingJiraId 0.
Proof.
  intros cfg a targets expected db Hf Hg Hn Ht.
  unfold jira_checks. rewrite (jira_checks_flags_feature cfg a _ expected db Hf), Hg, Hn.
  destruct targets as [|k t]; [contradiction Ht; reflexivity|].
  unfold no_reference. cbn [map first_refusing]. rewrite no_class_accepts_ticketless. reflexivity.
Qed.
Print Assumptions C11_ticket_mandatory_today.

(* outside the statement, said explicitly: server failures, sources without a prefix, odd expected versions *)
Theorem C11_server_failure : forall cfg a flags expected db key proj status,
  feature_shaped a -> gate_applies cfg a = true ->
  bi_jira_issue_key a = Some key -> bi_jira_project a = Some proj -> lookup key db = Failure status ->
  jira_checks_flags cfg a flags expected db = if (status =? 404)%Z then JiraIssueNotFound else JIRAErrorReraised.
Proof.
  intros cfg a flags expected db key proj status Hf Hg Hkey Hproj Hl.
  rewrite (jira_checks_flags_feature cfg a flags expected db Hf), Hg.
  unfold named_ticket, with_reference. rewrite Hkey, Hproj, Hl. reflexivity.
Qed.
Print Assumptions C11_server_failure.

Theorem C11_odd_expected_never_fits : forall fix_versions v,
  ~ unsuffixed v -> ~ hotfix_version v -> ~ versions_fit fix_versions [v].
Proof. exact odd_expected_never_fits. Qed.
Print Assumptions C11_odd_expected_never_fits.
