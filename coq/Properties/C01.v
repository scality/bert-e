(* C01 - Forward-port inclusion of destination branches is an invariant.
   Only the property theorems; each follows in a line from a lemma of Proofs/ (GitProofs, FlowProofs, QueueProofs,
   JobProofs). *)
From Coq Require Import List.
Require Import BertE.Model.Git BertE.Model.Flow BertE.Proofs.GitProofs BertE.Proofs.FlowProofs.
Require Import BertE.Model.Queues BertE.Proofs.QueueProofs.
Import ListNotations.

(* The direct merge of a pull request (merge_integration_branches): for any commit graph, any cascade, any
   number of targets and any mix of octopus / consecutive strategies, if the targets are closed upwards and
   listed in forward-port order (what C09 proves of the computed cascade), inclusion is kept, every branch only
   moves forward, and nothing but the targets moves. *)
Theorem C01_merge_integration :
  forall (later : name -> name -> Prop) sg c pairs c',
  wf_clone c -> Incl later c -> NoDup (map fst pairs) ->
  (forall w, In w (map snd pairs) -> ~ In w (map fst pairs)) ->
  upward_closed later c (map fst pairs) -> in_order later (map fst pairs) ->
  merge_integration sg c pairs = Some c' ->
  Incl later c' /\ grows c c' /\ forall n, ~ In n (map fst pairs) -> lookup (refs c') n = lookup (refs c) n.
Proof. exact merge_integration_incl. Qed.
Print Assumptions C01_merge_integration.

(* The queue merge (merge_queues): each selected destination lands exactly on its selected queue commit and
   inclusion is kept, provided the queue commits contain their destinations and are ordered like them. *)
Theorem C01_merge_queues :
  forall (later : name -> name -> Prop) c sel c',
  wf_clone c -> Incl later c -> NoDup (map fst sel) ->
  (forall q, In q (map snd sel) -> ~ In q (map fst sel)) ->
  upward_closed later c (map fst sel) -> in_order later (map fst sel) ->
  (forall d q, In (d, q) sel -> Below c d q) ->
  (forall d1 q1 d2 q2, In (d1, q1) sel -> In (d2, q2) sel -> later d1 d2 -> Below c q1 q2) ->
  merge_queues c sel = Some c' ->
  Incl later c' /\ (forall d q, In (d, q) sel -> lookup (refs c') d = lookup (refs c) q) /\
  (forall n, ~ In n (map fst sel) -> lookup (refs c') n = lookup (refs c) n) /\ st c' = st c.
Proof. exact merge_queues_incl. Qed.
Print Assumptions C01_merge_queues.

(* Every other job only merges into names that are not destinations (w/, q/, tmp/): inclusion untouched. *)
Theorem C01_other_jobs :
  forall (later : name -> name -> Prop) c ops c',
  wf_clone c -> Incl later c ->
  (forall n, In n (map op_dst ops) -> forall m, ~ later n m /\ ~ later m n) ->
  run_ops c ops = Some c' -> Incl later c'.
Proof. exact other_ops_incl. Qed.
Print Assumptions C01_other_jobs.

(* What is published: an accepted atomic push of all heads (with the explicit deletions of the branches the
   clone removed) makes the remote heads equal to the local ones (so the invariant of the clone becomes the
   invariant of the remote); a refused one is None. *)
Theorem C01_publish :
  forall s remote local deleted remote',
  wf_store s -> keys_nodup local ->
  push_all_atomic s remote local deleted = Some remote' ->
  (forall n x, lookup local n = Some x -> lookup remote' n = Some x) /\
  (forall n, lookup local n = None -> lookup remote' n = if mem n deleted then None else lookup remote n) /\
  (forall n old x, lookup remote n = Some old -> lookup local n = Some x -> Anc s old x).
Proof. exact push_all_atomic_spec. Qed.
Print Assumptions C01_publish.

(* The merge primitive itself: whatever git does (up to date, fast-forward, merge, octopus), the result
   contains HEAD and every source, and the graph only grows. *)
Theorem C01_merge_contains :
  forall s head srcs,
  wf_store s -> head < length s -> Forall (fun x => x < length s) srcs ->
  let s' := fst (apply_merge s head srcs) in
  let t := snd (apply_merge s head srcs) in
  wf_store s' /\ extends s s' /\ t < length s' /\ Anc s' head t /\ (forall x, In x srcs -> Anc s' x t).
Proof. exact merge_contains. Qed.
Print Assumptions C01_merge_contains.

(* The queue invariants that C01_merge_queues assumes are Bert-E's own work.  Starting from a clone with the
   inclusion and a well-formed queue description (QueuesWF: per version the master queue is the newest entry
   and contains the destination, entries are ordered by inclusion, the same pull request is ordered along the
   cascade, a pull request queued on a version is queued on every later one - it holds of empty queues:
   queues_wf_empty), any number of queueing steps (get_queue_branch(create), add_to_queue of a pull request
   newer than the queued ones whose targets are closed upwards and in cascade order: add_to_queue_preserves_wf)
   followed by merge_queues of the pull requests of rank <= k: the merge succeeds, inclusion is kept, every
   moved destination lands exactly on the newest selected queue commit of its version, nothing else moves, no
   commit is created, and the queueing steps moved nothing but q/* names.  Any commit graph, any number of
   versions / pull requests, any strategy mix. *)
Theorem C01_queue_cycle :
  forall (later : name -> name -> Prop) c qs c1 qs1 k,
  wf_clone c -> Incl later c -> QueuesWF later c qs -> queue_adds later c qs c1 qs1 ->
  exists c2, merge_queues c1 (sel_of k qs1) = Some c2 /\
  Incl later c2 /\
  (forall d q, In (d, q) (sel_of k qs1) ->
     lookup (refs c2) d = lookup (refs c1) q /\
     exists v e, In v qs1 /\ vdest v = d /\ In e (ventries v) /\ snd e = q /\ fst e <= k) /\
  (forall n, ~ In n (map fst (sel_of k qs1)) -> lookup (refs c2) n = lookup (refs c1) n) /\
  st c2 = st c1 /\
  (forall n, ~ In n (queue_names qs1) -> lookup (refs c1) n = lookup (refs c) n).
Proof. exact queue_cycle_incl. Qed.
Print Assumptions C01_queue_cycle.

(* What one add_to_queue does to the clone, for triples (master queue, integration branch, new
   queue-integration branch) with pairwise distinct queue names: (a) nothing but the master queues and the new
   branches moves, and what exists only moves forward; (b) each new queue-integration branch is the tip of its
   master queue; (c) it contains its integration branch, as it was; (e) whatever was contained in the master
   queue (the destination, the previous queue-integration branch) is contained in it; (d) the new branches are
   ordered along the cascade.  The conclusions (b)-(e) are checked on the real repository after every job that
   ends Queued (harness/lib/sysrun.py). *)
Theorem C01_add_to_queue :
  forall sg c triples c',
  wf_clone c -> aq_names_ok triples -> add_to_queue sg c triples = Some c' ->
  grows_except (map ti triples) c c' /\
  (forall n, ~ In n (map tq triples) -> ~ In n (map ti triples) -> lookup (refs c') n = lookup (refs c) n) /\
  (forall q w qi, In (q, w, qi) triples ->
     lookup (refs c') qi = lookup (refs c') q /\
     Below c' w qi /\ lookup (refs c') w = lookup (refs c) w /\
     (forall x, ~ In x (map tq triples) -> ~ In x (map ti triples) -> Below c x q -> Below c' x qi)) /\
  ForallOrdPairs (Below c') (map ti triples).
Proof. exact add_to_queue_spec. Qed.
Print Assumptions C01_add_to_queue.

(* add_to_queue of a pull request newer than everything queued preserves the queue invariant. *)
Theorem C01_add_to_queue_preserves_queues :
  forall (later : name -> name -> Prop) sg c qs p adds triples c',
  wf_clone c -> QueuesWF later c qs -> add_ok later c qs p adds ->
  triples_of qs adds = Some triples -> add_to_queue sg c triples = Some c' ->
  wf_clone c' /\ QueuesWF later c' (enqueue p adds qs) /\ extends (st c) (st c') /\
  (forall n, ~ In n (queue_names (enqueue p adds qs)) -> lookup (refs c') n = lookup (refs c) n).
Proof. exact add_to_queue_preserves_wf. Qed.
Print Assumptions C01_add_to_queue_preserves_queues.

(* One pull-request evaluation as a whole (Model/Job.v): the control skeleton of _handle_pull_request
   (Model/Pipeline.v) drives update_integration_branches, add_to_queue and merge_integration_branches over the
   job's clone; every other step is an arbitrary operation that leaves the destination branches alone.  Whatever
   the steps answer (every oracle), whatever the commit graph, the number of targets and the strategies, the clone
   the evaluation ends with keeps the forward-port inclusion. *)
Require Import BertE.Model.Pipeline BertE.Model.Job BertE.Proofs.JobProofs.
Theorem C01_evaluation :
  forall (later : name -> name -> Prop) (d : jobdata) (other : stage -> clone -> option clone),
  (forall s c c', wf_clone c -> other s c = Some c' -> dest_stable later c c') ->
  forall cfg o pos tr r c c',
  exec o pos (pr_inner cfg) = (tr, r) ->
  wf_clone c -> Incl later c -> names_ok later d c -> job_clone d other tr c = Some c' ->
  wf_clone c' /\ Incl later c'.
Proof.
  intros later d other St cfg o pos tr r c c' _. exact (job_keeps_inclusion later d other St tr c c').
Qed.
Print Assumptions C01_evaluation.
