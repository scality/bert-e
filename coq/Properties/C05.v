(* C05 - A queue evaluation merges the longest all-green prefix of the queue, in order.
   Model: Model/QueueSel.v = QueueCollection._process with the repair of fixes/C05_F1.diff (the per-path
   lookups are repeated on the truncated queues until the list stops shrinking).
   This file contains only the property theorems; each follows in a line or a few from the lemmas of
   Proofs/C05Base.v and Proofs/C05Proofs.v and is followed by Print Assumptions. *)
From Coq Require Import String List Bool ZArith.
Require Import BertE.Base.Lists BertE.Model.QueueSel BertE.Spec.C05Spec BertE.Proofs.C05Base BertE.Proofs.C05Proofs.
Import ListNotations.
Open Scope list_scope.
Open Scope Z_scope.

(* For every well-formed queue state (any number of pull requests, versions, hotfix queues and merge
   paths), every status assignment, forced or not: what handle_merge_queues selects and where every
   destination moves is exactly what the specification says; OutOfFuel / MasterMissing are excluded. *)
Theorem C05_full : forall (st : Z -> string) (paths : list (list version)) (order : list Z) (qs : queues)
                          (force : bool),
  WF paths order qs ->
  evaluate st paths force qs = Ok (spec_prs st force order qs, spec_moves st force order qs).
Proof.
  intros st paths order qs force Hwf.
  destruct force; [exact (c05_evaluate_force st paths order qs Hwf) | exact (c05_evaluate_eq st paths order qs Hwf)].
Qed.
Print Assumptions C05_full.

(* the fuel bounds: number of queue commits for _recursive_lookup, and for _process as a whole
   (no hypothesis on the input at all) *)
Theorem C05_lookup_fuel : forall (st : Z -> string) (fuel : nat) (qs : queues),
  (entries qs <= fuel)%nat -> exists qs', recursive_lookup fuel st qs = Ok qs'.
Proof. exact c05_lookup_total. Qed.
Print Assumptions C05_lookup_fuel.

Theorem C05_fuel : forall (st : Z -> string) (paths : list (list version)) (force : bool) (qs : queues),
  exists r, process st paths force qs = Ok r.
Proof.
  intros st paths force qs. unfold process, process_fuel. destruct force; [eexists; reflexivity|].
  destruct (c05_process_loop_total st (entries qs) paths (length (extract_pr_ids qs)) qs (extract_pr_ids qs)
              (le_n _) (le_n _)) as [r ->].
  eexists; reflexivity.
Qed.
Print Assumptions C05_fuel.

(* the selection is a prefix of the queue in order of entry (and of each hotfix queue) *)
Theorem C05_prefix : forall (st : Z -> string) (paths : list (list version)) (order : list Z) (qs : queues),
  WF paths order qs ->
  exists (k : nat) (kh : version * queue -> nat) mv,
    evaluate st paths false qs
    = Ok (flat_map (fun x => firstn (kh x) (entry_order (snd x))) (hotfix_queues qs) ++ firstn k order, mv).
Proof.
  intros st paths order qs Hwf.
  exists (length (select st (main_queues qs) order)), (fun x => length (select st [x] (entry_order (snd x)))),
         (spec_moves st false order qs).
  rewrite (c05_evaluate_eq st paths order qs Hwf). unfold spec_prs.
  rewrite <- c05_select_firstn. do 3 f_equal. apply flat_map_ext_in. intros x _. apply c05_select_firstn.
Qed.
Print Assumptions C05_prefix.

(* every destination that moves, moves to a commit with a SUCCESSFUL build ... *)
Theorem C05_moves_green : forall (st : Z -> string) (paths : list (list version)) (order : list Z) (qs : queues),
  WF paths order qs ->
  forall v e, In (v, Some e) (spec_moves st false order qs) -> green st e = true.
Proof. exact c05_moves_green. Qed.
Print Assumptions C05_moves_green.

(* ... and no longer prefix has that property *)
Theorem C05_maximal : forall (st : Z -> string) (paths : list (list version)) (order : list Z) (qs : queues)
                             (j : nat),
  WF paths order qs ->
  (length (select st (main_queues qs) order) < j <= length order)%nat ->
  all_green st (main_queues qs) (firstn j order) = false.
Proof. exact (fun st _ order qs j _ => c05_select_maximal st (main_queues qs) order j). Qed.
Print Assumptions C05_maximal.

(* with an admin force merge the whole queue is selected *)
Theorem C05_force : forall (st : Z -> string) (paths : list (list version)) (order : list Z) (qs : queues),
  WF paths order qs ->
  exists mv, evaluate st paths true qs
             = Ok (flat_map (fun x => entry_order (snd x)) (hotfix_queues qs) ++ order, mv).
Proof.
  exact (fun st paths order qs H =>
           ex_intro _ (spec_moves st true order qs) (c05_evaluate_force st paths order qs H)).
Qed.
Print Assumptions C05_force.

(* if no prefix qualifies nothing moves *)
Theorem C05_empty : forall (st : Z -> string) (paths : list (list version)) (order : list Z) (qs : queues),
  WF paths order qs ->
  (forall j, (0 < j <= length order)%nat -> all_green st (main_queues qs) (firstn j order) = false) ->
  (forall x j, In x (hotfix_queues qs) -> (0 < j <= length (entry_order (snd x)))%nat ->
               all_green st [x] (firstn j (entry_order (snd x))) = false) ->
  evaluate st paths false qs = Ok ([], map (fun x : version * queue => (fst x, None)) qs).
Proof.
  intros st paths order qs Hwf Hmain Hhf. rewrite (c05_evaluate_eq st paths order qs Hwf).
  assert (E : spec_prs st false order qs = []).
  { unfold spec_prs, select. rewrite (c05_longest_prefix_none _ order (length order) Hmain), app_nil_r.
    apply flat_map_nil_iff. intros x Hx. apply c05_longest_prefix_none. intros j Hj. exact (Hhf x j Hx Hj). }
  unfold spec_moves. rewrite E. do 2 f_equal. apply map_ext. intro x. rewrite c05_newest_selected_nil. reflexivity.
Qed.
Print Assumptions C05_empty.

(* statuses matter only through "= SUCCESSFUL" (selection) and "= FAILED" (failed_prs): justifies the
   enumeration of two-valued matrices *)
Theorem C05_status_abstraction : forall (st1 st2 : Z -> string) (paths : list (list version)) (force : bool)
                                        (qs : queues),
  (forall c, String.eqb (st1 c) "SUCCESSFUL" = String.eqb (st2 c) "SUCCESSFUL") ->
  evaluate st1 paths force qs = evaluate st2 paths force qs.
Proof. intros st1 st2 paths force qs H. unfold evaluate. rewrite (c05_process_ext st1 st2 H). reflexivity. Qed.
Print Assumptions C05_status_abstraction.

Theorem C05_failed_abstraction : forall (st1 st2 : Z -> string) (qs : queues),
  (forall c, String.eqb (st1 c) "FAILED" = String.eqb (st2 c) "FAILED") -> failed_prs st1 qs = failed_prs st2 qs.
Proof. exact c05_failed_prs_ext. Qed.
Print Assumptions C05_failed_abstraction.

(* the hypotheses are satisfiable: the F1 state and a state with a hotfix queue are well-formed, the
   executable check wf_b (run by the harness on every generated case) is sound, merge paths that come
   from a cascade are never the empty set *)
Theorem C05_wf_examples :
  WF c05_f1_paths [1; 2; 3] c05_f1_queues /\ WF c05_f1_paths [1; 2; 3] c05_hf_queues.
Proof. exact (conj c05_f1_wf c05_hf_wf). Qed.
Print Assumptions C05_wf_examples.

(* several hotfix queues at once are inside the hypotheses (nothing bounds their number) *)
Theorem C05_two_hotfix_queues_example :
  WF c05_hf2_paths [9] c05_hf2_queues
  /\ evaluate c05_hf2_status c05_hf2_paths false c05_hf2_queues
     = Ok (spec_prs c05_hf2_status false [9] c05_hf2_queues, spec_moves c05_hf2_status false [9] c05_hf2_queues)
  /\ spec_prs c05_hf2_status false [9] c05_hf2_queues = [3; 9].
Proof.
  exact (conj c05_hf2_wf (conj (C05_full c05_hf2_status c05_hf2_paths [9] c05_hf2_queues false c05_hf2_wf) eq_refl)).
Qed.
Print Assumptions C05_two_hotfix_queues_example.

Theorem C05_wf_b_sound : forall paths order qs, wf_b paths order qs = true -> WF paths order qs.
Proof. exact c05_wf_b_sound. Qed.
Print Assumptions C05_wf_b_sound.

Theorem C05_merge_paths_nonempty : forall c, get_merge_paths c <> [].
Proof. intro c. unfold get_merge_paths. apply c05_merge_paths_from_nonempty. discriminate. Qed.
Print Assumptions C05_merge_paths_nonempty.

(* F1, kept on record: the algorithm before the repair (one pass, shortest list wins) selects pull
   request 1 on the F1 state and moves development/4.3 to a commit whose build FAILED *)
Theorem C05_F1_unrepaired_refuted :
  exists mq, c05_process_unrepaired c05_f1_status c05_f1_paths c05_f1_queues = Ok ([1], mq)
             /\ moves mq = Ok [(c05_v [4; 3], Some (c05_e 1 0)); (c05_v [5; 1; 4], None);
                               (c05_v [5; 1], Some (c05_e 1 1)); (c05_v [10; 0], Some (c05_e 1 2))]
             /\ green c05_f1_status (c05_e 1 0) = false.
Proof. exact c05_f1_unrepaired. Qed.
Print Assumptions C05_F1_unrepaired_refuted.

(* queued_prs is the queue in order of entry when the newest development queue is the last non-hotfix
   key of _queues; c05_queued_prs_misses_one (Proofs) shows a sorted state where it is not *)
Theorem C05_queued_prs : forall (paths : list (list version)) (order : list Z) (qs : queues),
  WF paths order qs ->
  find (fun vq : version * queue => (length (fst vq) <? 4)%nat) (rev qs) = last_dev qs ->
  queued_prs qs = hf_list qs ++ order.
Proof. exact c05_queued_prs. Qed.
Print Assumptions C05_queued_prs.
