(* C12 - Held-back, finished and foreign pull requests are left alone.
   This file contains only the property theorems; each follows in a line or a few from the lemmas of
   Proofs/C12Proofs.v, or is a closed fact about the generated data or a witness history, evaluated in place;
   each is followed by Print Assumptions.

   evaluate cf dst_exists lookup order p   (Model/Holds.v) one run of handle_pull_request on pull request p up to
        the point where the rest of the program takes over:  Stopped call cls  (exception cls leaves the top-level
        call `call` of _handle_pull_request), StoppedDeclined (inside handle_declined_pull_request, which only
        removes integration data and always raises), Continues s (cloned, not DECLINED, settings s);
        [ev_greeted]: the InitMessage was posted.  cf: robot, admins, command-line options; dst_exists: the
        destination is on the remote; lookup: status of a pull-request number on the host; order: iteration order
        of the Python set of dependencies (any permutation).  Comment lists, texts and names are arbitrary.
   held / finished / closed / foreign / foreign_stated   (Spec/C12Spec.v) the classes of the statement.
   precedes_creating c: in the call order of _handle_pull_request read from the code (Facts_C12.hpr_calls), every
        call that creates an integration branch, an integration pull request, a queue entry or a merge, and every
        push, comes after call c. *)
From Coq Require Import List String Bool NArith Permutation.
Require Import BertE.Base.Str BertE.Generated.Facts_C07 BertE.Generated.Facts_C12 BertE.Model.Names BertE.Model.Reactor
               BertE.Model.Holds BertE.Spec.C07Spec BertE.Spec.C12Spec BertE.Proofs.C12Proofs.
Import ListNotations.
Open Scope string_scope.

(* The code has the order the model assumes: early_checks, send_greetings, (branch_factory x 2,) handle_comments,
   check_dependencies, clone_git_repo, all unconditional, then handle_declined_pull_request under its guard; every
   creating call comes after every one of them and does occur in the function. *)
Theorem C12_order :
  firstn (List.length gate_prefix) relevant_calls = gate_prefix /\
  forallb precedes_creating c12_gates = true /\
  forallb (fun c => existsb (fun cb => (fst cb =? c)%string) hpr_calls) creating_calls = true.
Proof. split; [|split]; [vm_compute; reflexivity | exact c12_gates_precede | vm_compute; reflexivity]. Qed.
Print Assumptions C12_order.

(* C12_held.  A held, finished or foreign pull request: the evaluation ends in one of the gates (or in the
   DECLINED clean-up), i.e. before anything can be created, queued, merged or pushed. *)
Theorem C12_held : forall cf dst_exists lookup order p, (forall l, Permutation (order l) l) ->
  held cf lookup p = true \/ finished (pr_status p) = true \/ foreign (pr_src p) (pr_dst p) = true ->
  exists c, stop_call (ev_fate (evaluate cf dst_exists lookup order p)) = Some c /\
            In c c12_gates /\ precedes_creating c = true.
Proof.
  intros cf dst_exists lookup order p PO H. pose proof (c12_evaluate_view cf dst_exists lookup order p) as V.
  destruct (ev_fate (evaluate cf dst_exists lookup order p)) as [c0 cls| |s] eqn:F.
  1,2: destruct V as (c & SC & G); exists c; exact (conj SC (conj G (c12_precedes c G))).
  exfalso. destruct V as (ST & NF & _). unfold finished in H.
  rewrite (c12_continues_not_held _ _ _ _ _ _ PO F), ST, NF in H. destruct H as [H|[H|H]]; discriminate H.
Qed.
Print Assumptions C12_held.

(* the list of the statement (destination not development/stabilization/hotfix, source user/*, hotfix/* or
   unrecognised) is covered by [foreign] *)
Theorem C12_foreign_stated : forall src dst, foreign_stated src dst = true -> foreign src dst = true.
Proof.
  intros src dst.
  unfold foreign_stated, foreign, foreign_source_stated, foreign_source.
  destruct (foreign_destination dst); [reflexivity|]. cbn [orb].
  destruct (classify src) as [a|]; [|reflexivity]. destruct (bi_class a); cbn; congruence.
Qed.
Print Assumptions C12_foreign_stated.

(* early_checks lets through exactly the open or closed pull requests between names Bert-E handles whose
   destination exists *)
Theorem C12_early_exact : forall e st src dst,
  early_checks e st src dst = None <-> (st = "OPEN" \/ st = "DECLINED") /\ foreign src dst = false /\ e = true.
Proof. exact c12_early_none. Qed.
Print Assumptions C12_early_exact.

(* C12_silent.  Foreign pull requests, and merged (or otherwise gone, not closed) ones: the run ends inside
   early_checks - the call before send_greetings - with an exception that handle_pull_request does not post:
   no greeting, no message, nothing. *)
Theorem C12_silent : forall cf dst_exists lookup order p,
  foreign (pr_src p) (pr_dst p) = true \/ (finished (pr_status p) = true /\ closed (pr_status p) = false) ->
  exists cls, evaluate cf dst_exists lookup order p = mk_eval false (Stopped "early_checks" cls) /\
              notified cls = Some false /\
              (cls = "NothingToDo" \/ cls = "NotMyJob" \/ cls = "UnrecognizedBranchPattern").
Proof. exact c12_silent. Qed.
Print Assumptions C12_silent.

Theorem C12_early_before_greetings :
  index_of "early_checks" relevant_calls = Some 0%nat /\ index_of "send_greetings" relevant_calls = Some 1%nat.
Proof. vm_compute. split; reflexivity. Qed.
Print Assumptions C12_early_before_greetings.

(* A closed pull request never gets past the DECLINED clean-up, whose own exceptions are silent (it may be greeted
   and may be told about a bad comment or dependency: it is a pull request Bert-E handles). *)
Theorem C12_declined : forall cf dst_exists lookup order p, pr_status p = "DECLINED" ->
  match ev_fate (evaluate cf dst_exists lookup order p) with Continues _ => False | _ => True end /\
  forallb c12_quiet declined_raises = true.
Proof.
  intros cf dst_exists lookup order p D. split; [|reflexivity].
  pose proof (c12_evaluate_view cf dst_exists lookup order p) as V.
  destruct (ev_fate (evaluate cf dst_exists lookup order p)); try exact I.
  destruct V as (ST & _). rewrite D in ST. discriminate ST.
Qed.
Print Assumptions C12_declined.

(* What check_dependencies does with a hold, for every iteration order of the set: the silent NothingToDo for
   `wait`, IncorrectPullRequestNumber / AfterPullRequest otherwise; the outcome does not depend on the order
   (only the id named by IncorrectPullRequestNumber does, and it is always an unknown one). *)
Theorem C12_dependencies : forall lookup s o1 o2,
  Permutation o1 o2 -> check_dependencies lookup s o1 = check_dependencies lookup s o2.
Proof. exact c12_order_independent. Qed.
Print Assumptions C12_dependencies.

Theorem C12_dependencies_held : forall lookup s order, Permutation order (after_ids s) -> c12_typed s ->
  held_by lookup s = true ->
  exists cls, check_dependencies lookup s order = DRaise cls /\
              (cls = "NothingToDo" /\ wait_on s = true \/
               wait_on s = false /\ (cls = "IncorrectPullRequestNumber" \/ cls = "AfterPullRequest")).
Proof.
  intros lookup s order P T H. rewrite (c12_check_dependencies_eq lookup s order T P). unfold held_by in H.
  destruct (wait_on s).
  - exists "NothingToDo". split; [reflexivity | left; split; reflexivity].
  - cbn [orb] in H. rewrite H. eexists. split; [reflexivity|]. right. split; [reflexivity|].
    destruct (first_unknown lookup order); [left | right]; reflexivity.
Qed.
Print Assumptions C12_dependencies_held.

Theorem C12_reported_id : forall lookup order d,
  reported_id lookup order = Some d -> In d order /\ dep_status lookup d = None.
Proof.
  intros lookup order d H. unfold reported_id in H. pose proof (c12_first_unknown_spec lookup order) as U.
  rewrite H in U. exact U.
Qed.
Print Assumptions C12_reported_id.

(* C12_lifted.  Without any hold (open pull request between handled names, destination present, comments the
   reactor accepts): check_dependencies returns and the program continues with exactly the options the comment
   list carries now ... *)
Theorem C12_lifted : forall cf lookup order p s, (forall l, Permutation (order l) l) ->
  pr_status p = "OPEN" -> foreign (pr_src p) (pr_dst p) = false ->
  handle_comments registry (cf_cmdline cf) (cf_robot cf) (cf_admins cf) (pr_author p)
                  (visible_comments (cf_robot cf) (pr_comments p)) = Ok s ->
  held cf lookup p = false ->
  evaluate cf true lookup order p = mk_eval (greets (cf_robot cf) (pr_comments p)) (Continues s)
  /\ s = carried cf p.
Proof.
  intros cf lookup order p s PO ST NF HC NH. destruct (c12_carried_of_ok cf p s HC) as [C T].
  split; [|symmetry; exact C]. unfold held in NH. rewrite C in NH. unfold evaluate.
  rewrite (proj2 (c12_early_none true _ _ _) (conj (or_introl ST) (conj NF eq_refl))), HC,
    (proj2 (c12_dep_return_iff lookup s _ T (PO _)) NH), c12_after_clone, ST.
  reflexivity.
Qed.
Print Assumptions C12_lifted.

(* ... which are those of the twin that never had the hold: a deleted comment leaves no trace, and whatever the
   robot said while the hold was in place (messages not addressed to it) changes no option. *)
Theorem C12_twin : forall cf lookup p p', pr_author p = pr_author p' ->
  filter (fun c => addressed (cf_robot cf) (c_text c)) (pr_comments p)
    = filter (fun c => addressed (cf_robot cf) (c_text c)) (pr_comments p') ->
  carried cf p = carried cf p' /\ held cf lookup p = held cf lookup p'.
Proof.
  intros cf lookup p p' A F. assert (C : carried cf p = carried cf p').
  { unfold carried. rewrite (c12_options_filter _ _ _ _ _ (pr_comments p)),
      (c12_options_filter _ _ _ _ _ (pr_comments p')), A, F. reflexivity. }
  split; [exact C|]. unfold held. rewrite C. reflexivity.
Qed.
Print Assumptions C12_twin.

(* the two hold options are read by check_dependencies (and written by the option handler) only; the queue code
   mentions neither comments nor options; both options are unprivileged *)
Theorem C12_hold_options :
  hold_readers = ["after_pull_request"; "check_dependencies"] /\ queue_reads_holds = false /\
  map fst hold_flags = ["wait"; "after_pull_request"].
Proof. exact (conj (proj1 c12_hold_readers) (conj (proj2 c12_hold_readers) (proj1 c12_hold_options_unprivileged))). Qed.
Print Assumptions C12_hold_options.

(* no hold out of nothing: a held pull request has a comment that names `wait` or `after_pull_request` *)
Theorem C12_hold_needs_comment : forall cf lookup p, mem_str "wait" (cf_cmdline cf) = false ->
  held cf lookup p = true ->
  exists c, In c (pr_comments p) /\
            (names (cf_robot cf) (c_text c) "wait" = true \/
             names (cf_robot cf) (c_text c) "after_pull_request" = true).
Proof. exact c12_hold_needs_comment. Qed.
Print Assumptions C12_hold_needs_comment.

(* C12_full (reading of DESIGN 5.0: "never gets merges" = by any job, queue evaluations included): in every
   history of comments, deletions, evaluations and queue evaluations that starts with an empty queue, no pull
   request is merged by a job that started while it was held.  FALSE of the faithful model (candidate F5):
   handle_merge_queues never looks at comments, so a hold added after the pull request entered the queue is
   ignored. *)
Definition C12_full : Prop :=
  forall h w evs, (forall l, Permutation (h_order h l) l) -> s_queued w = [] ->
    clean_log (h_cf h) (run h w evs).

Theorem C12_refuted : ~ C12_full.
Proof.
  intro H. pose proof (H c12_h c12_w0 c12_witness_wait (fun l => Permutation_refl l) eq_refl) as C.
  apply c12_clean_logb_spec in C. vm_compute in C. discriminate C.
Qed.
Print Assumptions C12_refuted.

(* the same with a dependency in place of `wait` *)
Theorem C12_refuted_after_pull_request :
  clean_logb c12_cf (run c12_h c12_w0 c12_witness_after) = false.
Proof. vm_compute. reflexivity. Qed.
Print Assumptions C12_refuted_after_pull_request.

(* C12_partial: the strongest true part - when no comment is added to or deleted from a pull request while it
   sits in the queue (holds are in place before queueing, or added once it left the queue), no job ever merges a
   held pull request: neither its own evaluation, nor a queue evaluation triggered by anything else. *)
Theorem C12_partial : forall h w evs, (forall l, Permutation (h_order h l) l) -> s_queued w = [] ->
  quiet_while_queued h w evs = true -> clean_log (h_cf h) (run h w evs).
Proof.
  intros h w evs PO Q. apply c12_partial; [exact PO|]. intros id I. rewrite Q in I. destruct I.
Qed.
Print Assumptions C12_partial.
