(* C16 - The robot's credentials never leak into logs, comments or job reports.
   This file contains only the property theorems; each follows in a line or a few from the lemmas of
   Proofs/C16Proofs.v and is followed by Print Assumptions.

   Two switches are data read from the code (Generated/Facts_C16.v): how _do_cmd links the raw subprocess
   error to the CommandError it raises and whether the clean-up after a timeout can raise with the
   TimeoutExpired as context ([code_links]: "from err" / unguarded leaks, "from None" + guarded does not), and whether
   _get_installation_token prints its headers ([token_flow_prints_headers]).  [C16_cmd] and [C16_headers]
   state, for the code as it is, the FULL statement when the switch is in the repaired position and
   "refuted + PARTIAL" when it is in the leaky one; the theorems around them cover both positions.
   Only [C16_cmd_full] and [C16_headers_full] stop compiling when a switch flips (their proofs evaluate it);
   all the others hold, and compile, in either position. *)
From Coq Require Import List String Ascii Bool.
Require Import BertE.Base.Str BertE.Base.Lists BertE.Generated.Facts_C16 BertE.Model.Mask BertE.Model.Cmd
               BertE.Spec.C16Spec BertE.Proofs.C16Proofs.
Import ListNotations.
Open Scope string_scope.

(* ---------------------------------------------------------------- masking *)

(* Replacing every occurrence of the secret by "***" (Python's str.replace) cannot re-create it. *)
Theorem C16_mask : forall pwd s : string,
  pwd <> "" -> ~ substring "*" pwd -> ~ substring pwd (replace_all pwd "***" s).
Proof.
  intros pwd s Hne Hst H. apply c16_has_char_substring in Hst. apply c16_contains_spec in H.
  exact (eq_true_false_abs _ H (c16_mask_bool pwd s Hne Hst)).
Qed.
Print Assumptions C16_mask.

(* The side condition is needed: "*a" masked in "*aa" gives "***a", which contains "*a". *)
Theorem C16_mask_side_condition_needed : substring "*a" (replace_all "*a" "***" "*aa").
Proof. apply c16_contains_spec. reflexivity. Qed.
Print Assumptions C16_mask_side_condition_needed.

(* Masking never introduces a star-free text that was not in the original (e.g. the raw password). *)
Theorem C16_mask_no_new : forall pwd r s : string,
  r <> "" -> ~ substring "*" r -> substring r (replace_all pwd "***" s) -> substring r s.
Proof.
  intros pwd r s Hr Hs H. apply c16_has_char_substring in Hs. apply c16_contains_spec in H. apply c16_contains_spec.
  exact (proj1 (c16_repl_no_new pwd "*" "**" r Hr (c16_stars_foreign r Hs) s 0 H)).
Qed.
Print Assumptions C16_mask_no_new.

(* quote_plus only produces A-Za-z0-9 _ . - ~ + % *)
Theorem C16_quote : forall p : string, str_forall url_quoted_char (quote_plus p) = true.
Proof. exact c16_quote_alphabet. Qed.
Print Assumptions C16_quote.

Theorem quote_plus_alphabet : forall p : string, ~ substring "*" (quote_plus p).
Proof.
  intro p. apply c16_has_char_substring, (str_forall_no_char url_quoted_char); [apply c16_quote_alphabet | reflexivity].
Qed.
Print Assumptions quote_plus_alphabet.

(* ... so the side condition of C16_mask is discharged for the mask Bert-E actually uses. *)
Theorem C16_mask_quoted : forall p s : string,
  p <> "" -> ~ substring (quote_plus p) (replace_all (quote_plus p) "***" s).
Proof.
  intros p s H. apply C16_mask; [apply c16_quote_nonempty; exact H | apply quote_plus_alphabet].
Qed.
Print Assumptions C16_mask_quoted.

(* The mask given to git.Repository is the form in which each git host puts the password in the URL. *)
Theorem C16_url_mask_agree : forall host pwd s : string,
  url_secret host pwd = Some s -> robot_mask pwd = Some s /\ s = quote_plus pwd.
Proof. exact c16_url_mask_agree. Qed.
Print Assumptions C16_url_mask_agree.

(* ---------------------------------------------------------------- commands and jobs *)

(* FULL, repaired position: for every command line, working directory, log level, retry count, script of
   process behaviours (exit code / timeout / other error) and outputs, wrapper and job - no emission
   (log records incl. the rendered exception chains of LOG.exception, returned value, exception message,
   job.status, job.details) contains the quoted password.  The secret may occur anywhere in the command
   and in the outputs; [cmd_inputs] only asks that it is not already part of Bert-E's own fixed words,
   of the directory / job / branch names and of the decimal numbers printed ([vocab]). *)
Theorem C16_cmd_repaired : cmd_statement repaired_links.
Proof. exact (c16_cmd_full_when_not_leaky repaired_links eq_refl). Qed.
Print Assumptions C16_cmd_repaired.

(* Leaky position (a raw subprocess error linked as cause or context): the FULL statement is false. *)
Theorem C16_cmd_leaky_refuted : forall lk, links_leaky lk = true -> ~ cmd_statement lk.
Proof. exact c16_cmd_refuted_when_leaky. Qed.
Print Assumptions C16_cmd_leaky_refuted.

(* PARTIAL, any position: everything except the headers of foreign exceptions in a rendered chain
   (when the clean-up after a timeout is not guarded: for scripts in which it does not fail, [script_ok]). *)
Theorem C16_cmd_partial : forall lk, cmd_partial lk.
Proof. exact c16_cmd_partial_all. Qed.
Print Assumptions C16_cmd_partial.

(* The code as it is. *)
Theorem C16_cmd : cmd_status code_links.
Proof. exact (c16_cmd_status code_links). Qed.
Print Assumptions C16_cmd.

(* job.status and job.details, shown on the status page and by the API, in any position. *)
Theorem C16_details : forall lk host pwd s j,
  cmd_inputs host pwd s j -> j_links j = lk -> script_ok lk (j_atts j) ->
  forall e, In e (job_emissions j) -> on_status_page e = true -> ~ shows s e.
Proof.
  intros lk host pwd s j Hin Hlk Hsc e He Hst.
  apply (c16_cmd_partial_all lk host pwd s j Hin Hlk Hsc s e); [left; reflexivity | exact He|].
  unfold foreign_chain. unfold on_status_page in Hst. destruct (fst e); try discriminate Hst; reflexivity.
Qed.
Print Assumptions C16_details.

(* ---------------------------------------------------------------- GitHub flows *)

(* FULL, repaired position: what the password flow and the GitHub-App flow emit (log records of
   BertESession.request, HTTP error messages, standard output) is the same whatever the password, the
   signed JWT and the installation token are, for every scripted sequence of answers. *)
Theorem C16_headers_repaired : headers_statement false.
Proof. exact c16_headers_repaired. Qed.
Print Assumptions C16_headers_repaired.

Theorem C16_headers_leaky_refuted : ~ headers_statement true.
Proof. exact c16_headers_refuted. Qed.
Print Assumptions C16_headers_leaky_refuted.

Theorem C16_headers_partial : forall prints, headers_partial prints.
Proof. exact c16_headers_partial_all. Qed.
Print Assumptions C16_headers_partial.

Theorem C16_headers : headers_status token_flow_prints_headers.
Proof. exact (c16_headers_status token_flow_prints_headers). Qed.
Print Assumptions C16_headers.

(* In terms of substrings: a secret shows up only if the public request data already contains it. *)
Theorem C16_headers_no_leak : forall g, g_prints g = false ->
  forall secret, no_leak [secret] (github_flow (with_secrets g "" "" "")) -> no_leak [secret] (github_flow g).
Proof.
  intros g Hp secret H.
  pose proof (c16_headers_repaired g Hp ("", "", "") (g_pwd g, g_jwt g, g_token g)) as E. cbn [fst snd] in E.
  rewrite E in H. destruct g. exact H.
Qed.
Print Assumptions C16_headers_no_leak.

(* ---------------------------------------------------------------- the code as it is: FULL statements

   These two only type-check while the switches read from the code are in the repaired position
   (links "from None" + guarded clean-up, no print of the headers): they are the statements the check
   stands on now that candidates F10 and F7 are repaired in /repo. *)

Theorem C16_cmd_full : cmd_statement code_links.
Proof. exact (c16_cmd_full_when_not_leaky code_links eq_refl). Qed.
Print Assumptions C16_cmd_full.

Theorem C16_headers_full : headers_statement token_flow_prints_headers.
Proof. exact c16_headers_repaired. Qed.
Print Assumptions C16_headers_full.

(* ---------------------------------------------------------------- the monitor *)

(* The extracted monitor run on the real code reports nothing exactly when nothing leaks. *)
Theorem C16_monitor_exact : forall secrets ems, leaking secrets ems = [] <-> no_leak secrets ems.
Proof.
  intros secrets ems. unfold leaking, no_leak. split.
  - intros H s e Hs He Hsh. apply (in_nil (a := e)). rewrite <- H. apply filter_In. split; [exact He|].
    apply existsb_exists. exists s. split; [exact Hs | apply c16_showsb_spec; exact Hsh].
  - intro H. apply filter_none. intros e He. apply not_true_is_false. intro Hx.
    apply existsb_exists in Hx as [s [Hs Hsh]]. apply c16_showsb_spec in Hsh. exact (H s e Hs He Hsh).
Qed.
Print Assumptions C16_monitor_exact.
