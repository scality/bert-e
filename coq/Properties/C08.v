(* C08 - Bert-E never rewrites or deletes what it does not own.  Only the property theorems; each follows in a
   line or a few from the lemmas of Proofs/. *)
From Coq Require Import List.
From Coq Require String.
Require Import BertE.Model.Git BertE.Model.Flow BertE.Model.Owned BertE.Proofs.GitProofs BertE.Proofs.FlowProofs
               BertE.Proofs.C08Proofs.
Import ListNotations.

(* Every branch-moving fragment only moves its targets, and only forward (fast-forward): direct merge. *)
Theorem C08_merge_integration_only_forward :
  forall (later : name -> name -> Prop) sg c pairs c',
  wf_clone c -> Incl later c -> NoDup (map fst pairs) ->
  (forall w, In w (map snd pairs) -> ~ In w (map fst pairs)) ->
  upward_closed later c (map fst pairs) -> in_order later (map fst pairs) ->
  merge_integration sg c pairs = Some c' ->
  Incl later c' /\ grows c c' /\ forall n, ~ In n (map fst pairs) -> lookup (refs c') n = lookup (refs c) n.
Proof. exact merge_integration_incl. Qed.
Print Assumptions C08_merge_integration_only_forward.

(* Any sequence of merges Bert-E performs in its clone: every branch keeps or fast-forwards its value. *)
Theorem C08_merges_only_forward :
  forall ops c c', wf_clone c -> run_ops c ops = Some c' ->
  grows c c' /\ forall n, ~ In n (map op_dst ops) -> lookup (refs c') n = lookup (refs c) n.
Proof. exact run_ops_grows. Qed.
Print Assumptions C08_merges_only_forward.

(* The atomic publication: never a rewind of any branch the remote has (a concurrent push or force-push to a
   source branch refuses the whole push), branches unknown to the clone are left alone, only the explicitly
   listed (own, locally removed) branches are deleted. *)
Theorem C08_push_all :
  forall s remote local deleted remote',
  wf_store s -> keys_nodup local ->
  push_all_atomic s remote local deleted = Some remote' ->
  (forall n old x, lookup remote n = Some old -> lookup local n = Some x -> Anc s old x) /\
  (forall n, lookup local n = None -> ~ In n deleted -> lookup remote' n = lookup remote n) /\
  (forall n, lookup remote' n = None -> lookup local n = None).
Proof.
  intros s remote local deleted remote' W ND H.
  destruct (push_all_atomic_spec _ _ _ _ _ W ND H) as (A & Bn & C). split; [exact C|]. split.
  - intros n L Hn. rewrite (Bn n L). destruct (mem n deleted) eqn:M; [apply mem_true in M; contradiction | reflexivity].
  - intros n L. destruct (lookup local n) as [x|] eqn:Ll; [rewrite (A n x Ll) in L; discriminate L | reflexivity].
Qed.
Print Assumptions C08_push_all.

Theorem C08_concurrent_update_refuses :
  forall s remote local deleted n x y,
  wf_store s -> lookup local n = Some x -> lookup remote n = Some y -> anc s y x = false ->
  push_all_atomic s remote local deleted = None.
Proof.
  intros s remote local deleted n x y W Ll Lr A. unfold push_all_atomic.
  rewrite (forallb_false _ local (n, x) (lookup_In _ _ _ Ll)); [reflexivity|].
  unfold ref_acceptable. cbn [fst snd]. rewrite Lr. exact A.
Qed.
Print Assumptions C08_concurrent_update_refuses.

(* The named push: only the named refs change, forward or by creation. *)
Theorem C08_push_names :
  forall s local names remote,
  wf_store s -> bounded s remote -> bounded s local ->
  let remote' := push_names s remote local names in
  (forall n, ~ In n names -> lookup remote' n = lookup remote n) /\
  (forall n old, lookup remote n = Some old -> exists y, lookup remote' n = Some y /\ Anc s old y) /\
  (forall n y, lookup remote' n = Some y -> lookup remote n = Some y \/ (In n names /\ lookup local n = Some y)).
Proof. exact push_names_spec. Qed.
Print Assumptions C08_push_names.

(* The deletion guard: without `force` only w/, q/ and tmp/ names can be deleted. *)
Theorem C08_remove_guard : forall n, remove_guard n false = true <-> owned_name n.
Proof.
  intro n. unfold remove_guard, owned_name, starts_with. cbn [existsb Facts_C08.owned_prefixes].
  rewrite !Bool.orb_false_r, !Bool.orb_true_iff. tauto.
Qed.
Print Assumptions C08_remove_guard.
