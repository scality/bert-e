(* C04 - The review gate lets a pull request through exactly when approvals suffice.
   This file contains only the property theorems; each follows in a line or a few from the lemmas of
   Proofs/C04Proofs.v and is followed by Print Assumptions. *)
From Coq Require Import List Bool NArith ZArith.
Require Import BertE.Model.Approvals BertE.Spec.C04Spec BertE.Proofs.C04Proofs.
Import ListNotations.

(* For every input - any lists of participants, approvers, change requesters and project leaders
   (any number of users, duplicates allowed), any integer counts, any combination of options and
   bypass sources - the model of check_approvals returns exactly when the five conjuncts of the
   statement hold.  No hypothesis: settings_valid is not needed. *)
Theorem C04_full : forall i : inputs, check_approvals i = Pass <-> spec_pass i.
Proof. exact c04_check_approvals_iff_spec. Qed.
Print Assumptions C04_full.

(* "Otherwise Bert-E reports which approvals are missing": the only other outcome is ApprovalRequired. *)
Theorem C04_otherwise_reports : forall i : inputs,
  check_approvals i <> Pass -> check_approvals i = ApprovalRequired.
Proof.
  intro i. rewrite check_approvals_eq. destruct (waivedb i); [intros []; reflexivity|].
  unfold check_tail. cbv zeta. destruct (negb _ || _ || _ || _ || _); [reflexivity | intros []; reflexivity].
Qed.
Print Assumptions C04_otherwise_reports.

(* The extracted monitor spec_passb decides the declarative specification. *)
Theorem C04_monitor_decides_spec : forall i : inputs, spec_passb i = true <-> spec_pass i.
Proof. exact c04_spec_passb_iff. Qed.
Print Assumptions C04_monitor_decides_spec.

(* Reduction 1: change requesters matter only through emptiness. *)
Theorem C04_change_requests_only_emptiness : forall (i : inputs) (cr1 cr2 : list user),
  (cr1 = [] <-> cr2 = []) ->
  check_approvals (with_change_requests i cr1) = check_approvals (with_change_requests i cr2).
Proof. exact (fun i cr1 cr2 => c04_reduction (with_change_requests i cr2) _ _ _ _ _ _ _ _ _ cr1 eq_refl eq_refl eq_refl). Qed.
Print Assumptions C04_change_requests_only_emptiness.

(* Reduction 2: each bypass matters only through the disjunction of its three sources. *)
Theorem C04_sources_only_disjunction :
  forall (i : inputs) (ac al ap pc pl pp lc ll lp ac' al' ap' pc' pl' pp' lc' ll' lp' : bool),
  ac || al || ap = ac' || al' || ap' ->
  pc || pl || pp = pc' || pl' || pp' ->
  lc || ll || lp = lc' || ll' || lp' ->
  check_approvals (with_sources i ac al ap pc pl pp lc ll lp) =
  check_approvals (with_sources i ac' al' ap' pc' pl' pp' lc' ll' lp').
Proof.
  exact (fun i ac al ap pc pl pp lc ll lp ac' al' ap' pc' pl' pp' lc' ll' lp' Ha Hp Hl =>
           c04_reduction (with_sources i ac' al' ap' pc' pl' pp' lc' ll' lp') ac al ap pc pl pp lc ll lp _
             Ha Hp Hl (iff_refl _)).
Qed.
Print Assumptions C04_sources_only_disjunction.

(* Both together: the enumeration only runs canonical representatives (bypass by comment, change
   requests {} or {r}) and loses nothing. *)
Theorem C04_canonical_representative : forall (r : user) (i : inputs),
  check_approvals i = check_approvals (c04_canonical r i).
Proof.
  intros r i. symmetry. apply c04_reduction; try (rewrite !orb_false_r; reflexivity).
  destruct (i_change_requests i); split; congruence.
Qed.
Print Assumptions C04_canonical_representative.

(* Where the settings validation rule matters: not for the equivalence, but for the gate to be
   passable at all without a leader bypass. *)
Theorem C04_invalid_settings_block : forall i : inputs,
  (Z.of_nat (List.length (i_leaders i)) < i_required_leader i)%Z -> ~ leader_bypassed i ->
  check_approvals i <> Pass.
Proof.
  intros i Hlt Hnb Hp. apply c04_check_approvals_iff_spec in Hp.
  destruct Hp as (_ & _ & [Hl|Hl] & _); [contradiction|].
  apply at_least_le with (S := i_leaders i) in Hl; [|intros x [H _]; exact H].
  exact (Z.lt_irrefl _ (Z.le_lt_trans _ _ _ Hl Hlt)).
Qed.
Print Assumptions C04_invalid_settings_block.

Theorem C04_leaders_reachable : forall i : inputs,
  settings_valid i -> NoDup (i_leaders i) ->
  (forall x, In x (i_leaders i) -> approved i x) -> leaders_ok i.
Proof.
  intros i [_ Hv] Hnd Hall. right. exists (i_leaders i). split; [exact Hnd|]. split; [|exact Hv].
  intros x Hx. split; [exact Hx | left; apply Hall, Hx].
Qed.
Print Assumptions C04_leaders_reachable.
