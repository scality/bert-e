(* C15 - reset never silently discards manual work and only touches its own PR.
   The property statements; each follows in a line or a few from the lemmas of Proofs/C15Proofs.v.
   The clause of the property that the next evaluation rebuilds the integration branches has no theorem; it is
   exercised on the real system only.
   Model: Model/Reset.v (the `_reset` loop and effect over the commit DAG of Model/Git.v), in the variant the code
   of /repo has ([code_variant], from Generated/Facts_C15.v).  Specification: Spec/C15Spec.v. *)
From Coq Require Import List Bool Arith String.
Require Import BertE.Model.Git BertE.Model.Reset BertE.Spec.C15Spec.
Require Import BertE.Proofs.GitProofs BertE.Proofs.FlowProofs BertE.Proofs.C15Proofs.
Import ListNotations.

(* ---------------------------------------------------------------- C15_refuse ----------------------------- *)

(* The statement at full strength: for every commit graph, history record, clone, candidates: if an existing
   integration branch of the pull request holds a manual commit, plain `reset` refuses - outcome
   LossyResetWarning, remote unchanged, nothing deleted, no push, nothing declined.
   [well_formed]: the author test only fires on robot commits; source / destination refs exist; the current
   source commits belong to the source history; `git log dst..w` lists what it should.  *)
Definition C15_full : Prop :=
  forall s seen h snapshot remote src cands prs wb cd cw c,
  well_formed code_variant s seen h snapshot src cands -> robot_merges_seen code_variant s seen ->
  on_branch snapshot cands wb cd cw -> held s cw cd c -> manual s h (w_name wb) c ->
  reset code_variant false s seen snapshot remote src cands prs = mkRes LossyResetWarning remote [] 0 [].

(* It is false (candidate F8): when the integration branch is a fast-forward of the source branch, a commit made
   on top of it has a source commit as parent and the loop takes it for a former source commit.  Witness
   C15Proofs.f8_store, replayed on the real system by corpus/C15/f8_fast_forward.json. *)
Theorem C15_refuted : ~ C15_full.
Proof. exact (full_refuted code_variant). Qed.
Print Assumptions C15_refuted.

(* No choice of the three data of the loop (which logs hide merges, shape of the parent test) repairs it. *)
Theorem C15_refuted_every_variant : forall v, ~ full_statement v.
Proof. exact full_refuted. Qed.
Print Assumptions C15_refuted_every_variant.

(* The normal shape: the manual commit was made on a merge commit of the robot that is neither part of the
   source history nor contained in the destination branch. *)
Definition C15_normal : Prop :=
  forall s seen h snapshot remote src cands prs wb cd cw c,
  well_formed code_variant s seen h snapshot src cands -> robot_merges_seen code_variant s seen ->
  on_branch snapshot cands wb cd cw -> held s cw cd c -> manual s h (w_name wb) c ->
  normal_shape s h cd c ->
  reset code_variant false s seen snapshot remote src cands prs = mkRes LossyResetWarning remote [] 0 [].

(* As long as `git log --no-merges` hides merge commits from the loop, a manual MERGE commit (the author's
   conflict resolution) on top of the robot's merge is deleted without a warning.  Witness C15Proofs.mg_store;
   on the real system this was corpus/C15/manual_merge.json before /repo commit 4e1acf0 (now a regression case
   that must end in LossyResetWarning). *)
Theorem C15_refuted_merge : walk_merges code_variant = false -> ~ C15_normal.
Proof. exact (normal_refuted_when_merges_hidden code_variant). Qed.
Print Assumptions C15_refuted_merge.

(* ... and it holds as soon as the loop examines merge commits (the repair, fixes/C15_merge_commits.diff). *)
Theorem C15_partial_merge : walk_merges code_variant = true -> C15_normal.
Proof. exact (normal_holds_when_merges_walked code_variant). Qed.
Print Assumptions C15_partial_merge.

(* THE VERDICT FOR THE CODE AS IT IS NOW.  The switch is data of /repo (Generated/Facts_C15.v, read from the AST of
   _reset on every run).  C15_code is stated for the repaired loop and its proof is [eq_refl] on the switch:
   reverting the repair (hiding merge commits from the walk again) makes PROVE fail.  Today: manual work made on
   the robot's merge commit - plain commit or merge commit - makes `reset` refuse (C15_normal); the statement at
   full strength stays false only through the fast-forward shape F8 (known finding, C15_refuted). *)
Theorem C15_code_is_repaired : code_variant = mkVariant true true true.
Proof. exact eq_refl. Qed.
Print Assumptions C15_code_is_repaired.

Theorem C15_code : walk_merges code_variant = true /\ C15_normal /\ ~ C15_full.
Proof.
  exact (conj eq_refl (conj (normal_holds_when_merges_walked code_variant eq_refl) (full_refuted code_variant))).
Qed.
Print Assumptions C15_code.

(* The same verdict as a function of the switch (true of either value, so that the file says what each means). *)
Theorem C15_verdict :
  if walk_merges code_variant then C15_normal /\ ~ C15_full
  else ~ C15_normal /\ nonmerge_statement code_variant /\ ~ C15_full.
Proof.
  destruct (walk_merges code_variant) eqn:W.
  - exact (conj (normal_holds_when_merges_walked code_variant W) (full_refuted code_variant)).
  - exact (conj (normal_refuted_when_merges_hidden code_variant W)
                (conj (nonmerge_holds code_variant) (full_refuted code_variant))).
Qed.
Print Assumptions C15_verdict.

(* What held before the repair and still holds for every variant: normal shape and the manual commit is not a merge. *)
Theorem C15_partial :
  forall s seen h snapshot remote src cands prs wb cd cw c,
  well_formed code_variant s seen h snapshot src cands -> robot_merges_seen code_variant s seen ->
  on_branch snapshot cands wb cd cw -> held s cw cd c -> manual s h (w_name wb) c ->
  normal_shape s h cd c -> is_merge s c = false ->
  reset code_variant false s seen snapshot remote src cands prs = mkRes LossyResetWarning remote [] 0 [].
Proof. exact (nonmerge_holds code_variant). Qed.
Print Assumptions C15_partial.

(* Exactly when does reset refuse?  Whatever the order of `git log`: it refuses if some existing integration
   branch lists a commit that the author test does not skip and that the loop cannot absorb ([Absorbed]: the
   current source commits and, recursively, listed unskipped commits whose parent(s) are absorbed or contained in
   the destination). *)
Theorem C15_refuse_if :
  forall v s seen snapshot remote src cands prs wb cs cd cw x,
  refs_present snapshot src (existing snapshot cands) -> In wb (existing snapshot cands) ->
  lookup snapshot src = Some cs -> lookup snapshot (w_dst wb) = Some cd -> lookup snapshot (w_name wb) = Some cw ->
  Wlisted v s cd cw x -> In x (w_order wb) -> mem x seen = false -> ~ Absorbed v s seen cs cd cw x ->
  reset v false s seen snapshot remote src cands prs = mkRes LossyResetWarning remote [] 0 [].
Proof. exact (refuse_general Generated.Facts_C15.push_prune). Qed.
Print Assumptions C15_refuse_if.

(* ... and only then, only without force, when the order is consistent with ancestry and complete. *)
Theorem C15_refuse_only_if :
  forall v force s seen snapshot remote src cands prs,
  r_outcome (reset v force s seen snapshot remote src cands prs) = LossyResetWarning ->
  force = false /\
  exists wb cs cd cw, In wb (existing snapshot cands) /\ lookup snapshot src = Some cs /\
    lookup snapshot (w_dst wb) = Some cd /\ lookup snapshot (w_name wb) = Some cw /\
    snd (classify v s seen cs cd cw (w_order wb)) = true.
Proof.
  intros v force s seen snapshot remote src cands prs. unfold reset.
  destruct (reset_spec Generated.Facts_C15.push_prune v force s seen snapshot remote src cands prs)
    as [_ | | F L | _ | remote' _]; try discriminate.
  intros _. split; [exact F|].
  apply lossy_any_existsb in L. symmetry in L. apply existsb_exists in L as (wb & I & C).
  destruct (lookup snapshot src) as [cs|]; [|discriminate C].
  destruct (lookup snapshot (w_dst wb)) as [cd|] eqn:Ed; [|discriminate C].
  destruct (lookup snapshot (w_name wb)) as [cw|] eqn:En; [|discriminate C].
  exists wb, cs, cd, cw. auto.
Qed.
Print Assumptions C15_refuse_only_if.

Theorem C15_verdict_exact :
  forall v s seen cs cd cw order,
  topo s (walk_of v s cd cw order) -> (forall x, Wlisted v s cd cw x -> In x order) ->
  (snd (classify v s seen cs cd cw order) = true <->
   exists x, Wlisted v s cd cw x /\ mem x seen = false /\ ~ Absorbed v s seen cs cd cw x).
Proof. exact classify_exact. Qed.
Print Assumptions C15_verdict_exact.

(* The order in which git lists the commits: irrelevant among orders consistent with ancestry; any other complete
   order can only turn an acceptance into a refusal (and some do: C15Proofs.order_matters). *)
Theorem C15_order_independent :
  forall v s seen cs cd cw o1 o2,
  topo s (walk_of v s cd cw o1) -> (forall x, Wlisted v s cd cw x -> In x o1) ->
  topo s (walk_of v s cd cw o2) -> (forall x, Wlisted v s cd cw x -> In x o2) ->
  snd (classify v s seen cs cd cw o1) = snd (classify v s seen cs cd cw o2).
Proof.
  intros v s seen cs cd cw o1 o2 T1 C1 T2 C2. apply eq_true_iff_eq.
  rewrite (C15_verdict_exact v s seen cs cd cw o1 T1 C1), (C15_verdict_exact v s seen cs cd cw o2 T2 C2). reflexivity.
Qed.
Print Assumptions C15_order_independent.

Theorem C15_order_monotone :
  forall v s seen cs cd cw o1 o2,
  topo s (walk_of v s cd cw o1) -> (forall x, Wlisted v s cd cw x -> In x o1) ->
  (forall x, Wlisted v s cd cw x -> In x o2) ->
  snd (classify v s seen cs cd cw o1) = true -> snd (classify v s seen cs cd cw o2) = true.
Proof.
  intros v s seen cs cd cw o1 o2 T1 C1 C2 H.
  apply (C15_verdict_exact v s seen cs cd cw o1 T1 C1) in H as (x & Hw & R & N).
  exact (classify_flags v s seen cs cd cw o2 x Hw (C2 x Hw) R N).
Qed.
Print Assumptions C15_order_monotone.

(* ---------------------------------------------------------------- C15_scope ------------------------------ *)

(* With or without force: every deleted name is a candidate "w/<version>/<source of this pull request>" that
   exists in the clone; every declined pull request is an OPEN one whose source is such a name; at most one push;
   a refusal / failure / run without push changes nothing. *)
Theorem C15_scope_effects :
  forall v force s seen snapshot remote src cands prs,
  let r := reset v force s seen snapshot remote src cands prs in
  (forall n, In n (r_deleted r) -> In n (map w_name cands) /\ has snapshot n = true) /\
  (forall i, In i (r_declined r) ->
     exists p, In p prs /\ pr_id p = i /\ pr_open p = true /\
               In (pr_src p) (map w_name cands) /\ has snapshot (pr_src p) = true) /\
  r_pushes r <= 1 /\
  (r_outcome r <> ResetComplete -> no_effect remote r) /\
  (r_pushes r = 0 -> no_effect remote r).
Proof. exact (scope_effects Generated.Facts_C15.push_prune). Qed.
Print Assumptions C15_scope_effects.

(* Clone-time assumption, explicit: nobody wrote to the remote between the clone and the push (remote = snapshot).
   Then the push is accepted, every name that is not an integration-branch name of this pull request - source
   branch, destination branches, q/ branches, other pull requests' w/ branches - keeps its value, and the only
   change to the heads of the remote is the disappearance of such names. *)
Theorem C15_scope :
  forall v force s seen snapshot src cands prs,
  wf_store s -> keys_nodup snapshot -> (forall n x, lookup snapshot n = Some x -> x < List.length s) ->
  let r := reset v force s seen snapshot snapshot src cands prs in
  let own := fun n => mem n (map w_name cands) in
  r_outcome r <> PushFailed /\ untouched own snapshot (r_remote r) /\ only_deletes own snapshot (r_remote r).
Proof. exact (scope_snapshot Generated.Facts_C15.push_prune). Qed.
Print Assumptions C15_scope.

(* Without the assumption: a branch the clone does not know (created since) survives. *)
Theorem C15_scope_unknown_survives :
  forall v force s seen snapshot remote src cands prs n,
  wf_store s -> keys_nodup snapshot -> lookup snapshot n = None ->
  lookup (r_remote (reset v force s seen snapshot remote src cands prs)) n = lookup remote n.
Proof.
  intros v force s seen snapshot remote src cands prs n W ND L. unfold reset.
  destruct (reset_spec Generated.Facts_C15.push_prune v force s seen snapshot remote src cands prs)
    as [_ | | _ _ | _ | remote' P]; try reflexivity.
  cbn [r_remote]. rewrite (pushed_remote Generated.Facts_C15.push_prune s snapshot remote cands remote' W ND P n), L.
  destruct (mem n (names_of snapshot cands)) eqn:M; [|reflexivity].
  apply mem_true, names_exist in M as [_ M]. unfold has in M. rewrite L in M. discriminate M.
Qed.
Print Assumptions C15_scope_unknown_survives.

(* A completed reset has removed every existing integration branch of the pull request. *)
Theorem C15_removes :
  forall v force s seen snapshot remote src cands prs,
  wf_store s -> keys_nodup snapshot ->
  let r := reset v force s seen snapshot remote src cands prs in
  r_outcome r = ResetComplete ->
  forall n, In n (names_of snapshot cands) -> lookup (r_remote r) n = None.
Proof.
  intros v force s seen snapshot remote src cands prs W ND. cbv zeta. unfold reset.
  destruct (reset_spec Generated.Facts_C15.push_prune v force s seen snapshot remote src cands prs)
    as [N | | _ _ | _ | remote' P]; try discriminate; intros _ n Hn.
  - rewrite N in Hn. destruct Hn.
  - cbn [r_remote]. rewrite (pushed_remote Generated.Facts_C15.push_prune s snapshot remote cands remote' W ND P n).
    apply mem_true in Hn. rewrite Hn. reflexivity.
Qed.
Print Assumptions C15_removes.

(* The names formed by get_integration_branches pass the guard of Branch.remove. *)
Theorem C15_guard : forall version src : string, remove_allowed (wname version src) = true.
Proof. exact wname_guard. Qed.
Print Assumptions C15_guard.
