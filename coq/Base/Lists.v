(* Facts about the standard list functions that the standard library of Coq 8.16 does not have, for the
   proof files to share.  Nothing here mentions the model. *)
From Coq Require Import List Bool Arith Lia Permutation.
Import ListNotations.

Section Lists.
  Context {A B C : Type}.
  Implicit Types (l a b : list A) (p q : A -> bool).

  Lemma NoDup_app_iff a b :
    NoDup (a ++ b) <-> NoDup a /\ NoDup b /\ (forall x, In x a -> ~ In x b).
  Proof.
    induction a as [|h t IH]; cbn.
    - split; [intro H; repeat split; [constructor | exact H | intros _ []] | intros (_ & H & _); exact H].
    - rewrite !NoDup_cons_iff, IH, in_app_iff. split.
      + intros (Hn & Ht & Hb & D). repeat split; [tauto | exact Ht | exact Hb |].
        intros x [<-|Hx]; [tauto | apply D; exact Hx].
      + intros ((Hn & Ht) & Hb & D). repeat split; [|exact Ht | exact Hb | intros x Hx; apply D; right; exact Hx].
        intros [G|G]; [exact (Hn G) | exact (D h (or_introl eq_refl) G)].
  Qed.

  Lemma NoDup_app a b : NoDup a -> NoDup b -> (forall x, In x a -> ~ In x b) -> NoDup (a ++ b).
  Proof. intros. apply NoDup_app_iff. auto. Qed.

  Lemma NoDup_snoc l x : NoDup l -> ~ In x l -> NoDup (l ++ [x]).
  Proof.
    intros Hl Hx. apply NoDup_app; [exact Hl | constructor; [intros [] | constructor] |].
    intros y Hy [<-|[]]. exact (Hx Hy).
  Qed.

  Lemma NoDup_map_inj (f : A -> B) l x y :
    NoDup (map f l) -> In x l -> In y l -> f x = f y -> x = y.
  Proof.
    induction l as [|h t IH]; cbn; [intros _ []|].
    rewrite NoDup_cons_iff. intros [Hn Ht] [->|Hx] [->|Hy] E; auto.
    - exfalso. apply Hn. rewrite E. apply in_map, Hy.
    - exfalso. apply Hn. rewrite <- E. apply in_map, Hx.
  Qed.

  Lemma NoDup_map_filter (f : A -> B) p l : NoDup (map f l) -> NoDup (map f (filter p l)).
  Proof.
    induction l as [|h t IH]; cbn; [auto|]. rewrite NoDup_cons_iff. intros [Hn Ht].
    destruct (p h); cbn; [|auto]. constructor; [|auto].
    rewrite in_map_iff in *. intros (x & E & Hx). apply Hn. exists x. split; [exact E|].
    apply filter_In in Hx. tauto.
  Qed.

  Lemma filter_all p l : (forall x, In x l -> p x = true) -> filter p l = l.
  Proof.
    induction l as [|h t IH]; cbn; intro H; [reflexivity|].
    rewrite (H h (or_introl eq_refl)), IH; [reflexivity | intros; apply H; right; assumption].
  Qed.

  Lemma filter_none p l : (forall x, In x l -> p x = false) -> filter p l = [].
  Proof.
    induction l as [|h t IH]; cbn; intro H; [reflexivity|].
    rewrite (H h (or_introl eq_refl)). apply IH. intros; apply H; right; assumption.
  Qed.

  Lemma filter_filter p q l : filter p (filter q l) = filter (fun x => q x && p x) l.
  Proof. induction l as [|h t IH]; cbn; [reflexivity|]. destruct (q h); cbn; [destruct (p h)|]; congruence. Qed.

  Lemma filter_rev p l : filter p (rev l) = rev (filter p l).
  Proof.
    induction l as [|h t IH]; cbn; [reflexivity|]. rewrite filter_app, IH. cbn.
    destruct (p h); cbn; [reflexivity | apply app_nil_r].
  Qed.

  Lemma filter_map_swap (f : A -> B) (r : B -> bool) l :
    filter r (map f l) = map f (filter (fun x => r (f x)) l).
  Proof. induction l as [|h t IH]; cbn; [reflexivity|]. destruct (r (f h)); cbn; congruence. Qed.

  Lemma filter_length_le p l : length (filter p l) <= length l.
  Proof. induction l as [|h t IH]; cbn; [lia|]. destruct (p h); cbn; lia. Qed.

  Lemma Permutation_filter p a b : Permutation a b -> Permutation (filter p a) (filter p b).
  Proof.
    induction 1 as [|x l l' _ IH|x y l|l l' l'' _ IH1 _ IH2]; cbn.
    - constructor.
    - destruct (p x); [constructor|]; exact IH.
    - destruct (p x), (p y); try reflexivity. apply perm_swap.
    - rewrite IH1. exact IH2.
  Qed.

  Lemma forallb_ext_in p q l : (forall x, In x l -> p x = q x) -> forallb p l = forallb q l.
  Proof.
    induction l as [|h t IH]; cbn; intro H; [reflexivity|].
    rewrite (H h (or_introl eq_refl)), IH; [reflexivity | intros; apply H; right; assumption].
  Qed.

  Lemma existsb_ext_in p q l : (forall x, In x l -> p x = q x) -> existsb p l = existsb q l.
  Proof.
    induction l as [|h t IH]; cbn; intro H; [reflexivity|].
    rewrite (H h (or_introl eq_refl)), IH; [reflexivity | intros; apply H; right; assumption].
  Qed.

  Lemma forallb_false p l x : In x l -> p x = false -> forallb p l = false.
  Proof.
    intros Hx Hp. destruct (forallb p l) eqn:E; [|reflexivity].
    rewrite forallb_forall in E. rewrite (E x Hx) in Hp. discriminate.
  Qed.

  Lemma existsb_false_iff p l : existsb p l = false <-> forall x, In x l -> p x = false.
  Proof.
    induction l as [|h t IH]; cbn; [split; [intros _ x [] | reflexivity]|].
    rewrite orb_false_iff, IH. split; [intros [Hh Ht] x [<-|Hx]; auto | auto].
  Qed.

  Lemma forallb_map (f : A -> B) (r : B -> bool) l : forallb r (map f l) = forallb (fun x => r (f x)) l.
  Proof. induction l as [|h t IH]; cbn; congruence. Qed.

  Lemma existsb_map (f : A -> B) (r : B -> bool) l : existsb r (map f l) = existsb (fun x => r (f x)) l.
  Proof. induction l as [|h t IH]; cbn; congruence. Qed.

  Lemma forallb_filter p q l : forallb p (filter q l) = forallb (fun x => negb (q x) || p x) l.
  Proof. induction l as [|h t IH]; cbn; [reflexivity|]. destruct (q h); cbn; congruence. Qed.

  Lemma find_map (f : A -> B) (r : B -> bool) l :
    find r (map f l) = option_map f (find (fun x => r (f x)) l).
  Proof. induction l as [|h t IH]; cbn; [reflexivity|]. destruct (r (f h)); [reflexivity | exact IH]. Qed.

  Lemma find_app_skip p a b : (forall x, In x a -> p x = false) -> find p (a ++ b) = find p b.
  Proof.
    induction a as [|h t IH]; cbn; intro H; [reflexivity|].
    rewrite (H h (or_introl eq_refl)). apply IH. intros; apply H; right; assumption.
  Qed.

  Lemma flat_map_ext_in (f g : A -> list B) l : (forall x, In x l -> f x = g x) -> flat_map f l = flat_map g l.
  Proof.
    induction l as [|h t IH]; cbn; intro H; [reflexivity|].
    rewrite (H h (or_introl eq_refl)), IH; [reflexivity | intros; apply H; right; assumption].
  Qed.

  Lemma flat_map_map (f : A -> B) (g : B -> list C) l : flat_map g (map f l) = flat_map (fun x => g (f x)) l.
  Proof. induction l as [|h t IH]; cbn; congruence. Qed.

  Lemma flat_map_nil_iff (f : A -> list B) l : flat_map f l = [] <-> forall x, In x l -> f x = [].
  Proof.
    induction l as [|h t IH]; cbn; [split; [intros _ x [] | reflexivity]|].
    split.
    - intros E x [<-|Hx]; apply app_eq_nil in E; [tauto | apply IH; tauto].
    - intro H. rewrite (H h (or_introl eq_refl)). apply IH. intros; apply H; right; assumption.
  Qed.

  Lemma In_firstn x n l : In x (firstn n l) -> In x l.
  Proof. intro H. rewrite <- (firstn_skipn n l). apply in_or_app. left; exact H. Qed.

  Lemma In_skipn x n l : In x (skipn n l) -> In x l.
  Proof. intro H. rewrite <- (firstn_skipn n l). apply in_or_app. right; exact H. Qed.

  Lemma nth_error_skipn n l k : nth_error (skipn n l) k = nth_error l (n + k).
  Proof. revert l; induction n as [|n IH]; intros [|h t]; cbn; auto. destruct k; reflexivity. Qed.

  Lemma nth_error_firstn n l k x : nth_error (firstn n l) k = Some x <-> k < n /\ nth_error l k = Some x.
  Proof.
    revert l k; induction n as [|n IH]; intros l k; cbn.
    - split; [destruct k; discriminate | lia].
    - destruct l as [|h t]; cbn; [split; [destruct k; discriminate | intros [_ H]; destruct k; discriminate]|].
      destruct k; cbn; [split; [intros ->; split; [lia | reflexivity] | tauto]|].
      rewrite IH. split; intros [? ?]; split; auto; lia.
  Qed.

  Lemma nth_error_app_Some l b k x : nth_error l k = Some x -> nth_error (l ++ b) k = Some x.
  Proof.
    intro H. rewrite nth_error_app1; [exact H|]. apply nth_error_Some. congruence.
  Qed.

  Lemma nth_error_snoc l x k y :
    nth_error (l ++ [x]) k = Some y -> nth_error l k = Some y \/ (k = length l /\ y = x).
  Proof.
    intro H. destruct (Nat.lt_ge_cases k (length l)) as [L|L].
    - left. rewrite nth_error_app1 in H; assumption.
    - right. rewrite nth_error_app2 in H by exact L.
      destruct (k - length l) as [|[|?]] eqn:E; cbn in H; try discriminate.
      split; [lia | congruence].
  Qed.
End Lists.

(* [existsb (eqb x) l] decides membership for any boolean equality that reflects Leibniz equality:
   the many [mem] functions of the model are instances. *)
Lemma existsb_eqb_In {A} (eqb : A -> A -> bool) (eqb_eq : forall a b, eqb a b = true <-> a = b) x (l : list A) :
  existsb (eqb x) l = true <-> In x l.
Proof.
  rewrite existsb_exists. split.
  - intros (y & Hy & E). apply eqb_eq in E. subst; exact Hy.
  - intro H. exists x. split; [exact H | apply eqb_eq; reflexivity].
Qed.
