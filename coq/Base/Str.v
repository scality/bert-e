(* Base/Str.v - ASCII strings: character classes, splitting, scanning, decimal numbers.

   Shared layer (DESIGN 4.2), standard library and Base/Lists.v only.  Python [str] is modelled by Coq [string]
   restricted to ASCII (DESIGN 4.1).  Everything here is executable (it is extracted with the
   models that use it) and comes with the lemmas the property proofs need:

     characters   code, is_digit ([0-9]), is_lower, is_upper, is_word ([a-zA-Z0-9_]), LF, to_upper, upper
     predicates   str_forall p s, has_char c s, mem_str x l
     append       sapp_assoc, sapp_nil_r, has_char_app, str_forall_app
     prefixes     strip_prefix pre s            (s = pre ++ r  ->  Some r)
     first split  split_first c s               (s = a ++ c :: b, c not in a  ->  Some (a, b))
     all splits   split_char c s / join c l     (Python's s.split(c) / c.join(l))
     maximal run  span p s                      (longest prefix whose characters satisfy p)
     end of line  chomp s                       (drops one trailing LF: what "$" of Python's re allows)
     decimals     is_num s (= \d+ on ASCII), dec_value s (= int(s)), print_N n (= str(n))
     formats      fmt_apply f args              ("{}"-only str.format)
*)
From Coq Require Import List String Ascii Bool Arith NArith Lia.
Require Import BertE.Base.Lists.
Import ListNotations.
Open Scope string_scope.

Definition code (c : ascii) : N := N_of_ascii c.
Definition in_range (lo hi : N) (c : ascii) : bool := ((lo <=? code c) && (code c <=? hi))%N.
Definition is_digit (c : ascii) : bool := in_range 48 57 c.
Definition is_lower (c : ascii) : bool := in_range 97 122 c.
Definition is_upper (c : ascii) : bool := in_range 65 90 c.
Definition is_word (c : ascii) : bool :=
  is_digit c || is_lower c || is_upper c || (c =? "_")%char.
Definition LF : ascii := ascii_of_N 10.
Definition to_upper (c : ascii) : ascii := if is_lower c then ascii_of_N (code c - 32) else c.

Fixpoint upper (s : string) : string :=
  match s with
  | EmptyString => EmptyString
  | String c t => String (to_upper c) (upper t)
  end.

Fixpoint str_forall (p : ascii -> bool) (s : string) : bool :=
  match s with
  | EmptyString => true
  | String c t => p c && str_forall p t
  end.

Fixpoint has_char (c : ascii) (s : string) : bool :=
  match s with
  | EmptyString => false
  | String d t => (d =? c)%char || has_char c t
  end.

Definition is_empty (s : string) : bool := match s with EmptyString => true | _ => false end.

Definition mem_str (x : string) (l : list string) : bool := existsb (String.eqb x) l.

Lemma mem_str_In x l : mem_str x l = true <-> In x l.
Proof. exact (existsb_eqb_In String.eqb String.eqb_eq x l). Qed.

Lemma is_empty_true s : is_empty s = true <-> s = "".
Proof. destruct s; cbn; split; congruence. Qed.

Lemma is_empty_false s : is_empty s = false <-> s <> "".
Proof. destruct s; cbn; split; congruence. Qed.

Lemma is_empty_eqb_nil s : (s =? "")%string = is_empty s.
Proof. destruct s; reflexivity. Qed.

Lemma upper_is_empty s : is_empty (upper s) = is_empty s.
Proof. destruct s; reflexivity. Qed.

Lemma sapp_nil_r s : s ++ "" = s.
Proof. induction s as [|c t IH]; cbn; [reflexivity | rewrite IH; reflexivity]. Qed.

Lemma sapp_assoc a b c : (a ++ b) ++ c = a ++ (b ++ c).
Proof. induction a as [|x t IH]; cbn; [reflexivity | rewrite IH; reflexivity]. Qed.

Lemma sapp_cons c a b : String c a ++ b = String c (a ++ b).
Proof. reflexivity. Qed.

Lemma sapp_inv_head a b c : a ++ b = a ++ c -> b = c.
Proof. induction a as [|x t IH]; cbn; intro H; [exact H | injection H as H; exact (IH H)]. Qed.

Lemma sapp_eq_nil a b : a ++ b = "" -> a = "" /\ b = "".
Proof. destruct a; cbn; intro H; [split; [reflexivity | exact H] | discriminate H]. Qed.

Lemma has_char_app c a b : has_char c (a ++ b) = has_char c a || has_char c b.
Proof. induction a as [|x t IH]; cbn; [reflexivity | rewrite IH, orb_assoc; reflexivity]. Qed.

Lemma has_char_app_r c a b : has_char c (a ++ b) = false -> has_char c b = false.
Proof. rewrite has_char_app. intro H. apply orb_false_iff in H. apply H. Qed.

Lemma str_forall_app p a b : str_forall p (a ++ b) = str_forall p a && str_forall p b.
Proof. induction a as [|x t IH]; cbn; [reflexivity | rewrite IH, andb_assoc; reflexivity]. Qed.

Lemma str_forall_no_char p c s : str_forall p s = true -> p c = false -> has_char c s = false.
Proof.
  induction s as [|d t IH]; cbn; intros H Hc; [reflexivity|].
  apply andb_true_iff in H as [Hd Ht]. rewrite (IH Ht Hc), orb_false_r.
  destruct (Ascii.eqb_spec d c) as [->|]; [rewrite Hc in Hd; discriminate Hd | reflexivity].
Qed.

Lemma str_forall_impl (p q : ascii -> bool) s :
  (forall c, p c = true -> q c = true) -> str_forall p s = true -> str_forall q s = true.
Proof.
  intro I. induction s as [|d t IH]; cbn; intro H; [reflexivity|].
  apply andb_true_iff in H as [Hd Ht]. rewrite (I d Hd), (IH Ht). reflexivity.
Qed.

Fixpoint strip_prefix (pre s : string) : option string :=
  match pre with
  | EmptyString => Some s
  | String c p' =>
      match s with
      | EmptyString => None
      | String d s' => if (c =? d)%char then strip_prefix p' s' else None
      end
  end.

Lemma strip_prefix_app pre r : strip_prefix pre (pre ++ r) = Some r.
Proof. induction pre as [|c p IH]; cbn; [reflexivity | rewrite Ascii.eqb_refl; exact IH]. Qed.

Lemma prefix_sapp a b : String.prefix a (a ++ b) = true.
Proof.
  induction a as [|c a IH]; cbn; [destruct b; reflexivity|]. destruct (ascii_dec c c); [exact IH | contradiction].
Qed.

Lemma strip_prefix_some pre s r : strip_prefix pre s = Some r -> s = pre ++ r.
Proof.
  revert s. induction pre as [|c p IH]; cbn; intros s H.
  - injection H as ->. reflexivity.
  - destruct s as [|d s']; [discriminate H|].
    destruct (Ascii.eqb_spec c d) as [->|]; [|discriminate H]. rewrite (IH _ H). reflexivity.
Qed.

Lemma strip_prefix_iff pre s r : strip_prefix pre s = Some r <-> s = pre ++ r.
Proof. split; [apply strip_prefix_some | intros ->; apply strip_prefix_app]. Qed.

Fixpoint split_first (c : ascii) (s : string) : option (string * string) :=
  match s with
  | EmptyString => None
  | String d t =>
      if (d =? c)%char then Some (EmptyString, t)
      else match split_first c t with
           | Some (a, b) => Some (String d a, b)
           | None => None
           end
  end.

Lemma split_first_some c s a b :
  split_first c s = Some (a, b) -> s = a ++ String c b /\ has_char c a = false.
Proof.
  revert a b. induction s as [|d t IH]; cbn; intros a b H; [discriminate H|].
  destruct (Ascii.eqb_spec d c) as [->|Hn].
  - injection H as <- <-. split; reflexivity.
  - destruct (split_first c t) as [[a' b']|]; [|discriminate H].
    injection H as <- <-. destruct (IH a' b' eq_refl) as [-> Hc]. split; [reflexivity|].
    cbn. rewrite Hc. destruct (Ascii.eqb_spec d c); [contradiction | reflexivity].
Qed.

Lemma split_first_app c a b : has_char c a = false -> split_first c (a ++ String c b) = Some (a, b).
Proof.
  induction a as [|d t IH]; cbn; intro H.
  - rewrite Ascii.eqb_refl. reflexivity.
  - apply orb_false_iff in H as [Hd Ht]. rewrite Hd, (IH Ht). reflexivity.
Qed.

Lemma split_first_none c s : split_first c s = None <-> has_char c s = false.
Proof.
  induction s as [|d t IH]; cbn; [split; reflexivity|].
  destruct (d =? c)%char; cbn.
  - split; intro H; discriminate H.
  - destruct (split_first c t) as [[a b]|].
    + split; intro H; [discriminate H|]. apply IH in H. discriminate H.
    + split; intro H; [apply IH; reflexivity | reflexivity].
Qed.

Lemma split_first_no_char d c s a b : split_first c s = Some (a, b) -> has_char d s = false ->
  has_char d a = false /\ has_char d b = false.
Proof.
  intros E H. apply split_first_some in E as [-> _]. rewrite has_char_app in H. cbn [has_char] in H.
  apply orb_false_iff in H as [Ha H]. apply orb_false_iff in H as [_ Hb]. split; assumption.
Qed.

Lemma split_first_sapp c a b :
  split_first c (a ++ b) =
  match split_first c a with
  | Some (x, y) => Some (x, y ++ b)
  | None => match split_first c b with Some (x, y) => Some (a ++ x, y) | None => None end
  end.
Proof.
  induction a as [|d t IH]; cbn; [destruct (split_first c b) as [[x y]|]; reflexivity|].
  destruct (d =? c)%char; [reflexivity|]. rewrite IH.
  destruct (split_first c t) as [[x y]|]; [reflexivity|]. destruct (split_first c b) as [[x y]|]; reflexivity.
Qed.

Lemma strip_head_app c h p s : has_char c h = false ->
  strip_prefix (h ++ String c p) s =
  match split_first c s with
  | Some (a, b) => if (a =? h)%string then strip_prefix p b else None
  | None => None
  end.
Proof.
  intro Hh. revert s. induction h as [|d t IH]; intros [|e s']; try reflexivity; cbn in *.
  - rewrite Ascii.eqb_sym. destruct (e =? c)%char; [reflexivity|].
    destruct (split_first c s') as [[a b]|]; reflexivity.
  - apply orb_false_iff in Hh as [Hd Ht]. destruct (Ascii.eqb_spec d e) as [<-|Hn].
    + rewrite Hd, (IH Ht). destruct (split_first c s') as [[a b]|]; [|reflexivity].
      cbn. rewrite Ascii.eqb_refl. reflexivity.
    + destruct (e =? c)%char; [reflexivity|]. destruct (split_first c s') as [[a b]|]; [|reflexivity].
      cbn. destruct (Ascii.eqb_spec e d) as [->|]; [contradiction | reflexivity].
Qed.

Lemma strip_head_bind {B} c h p s (F : string -> option B) : has_char c h = false ->
  match strip_prefix (h ++ String c p) s with Some r => F r | None => None end =
  match split_first c s with
  | Some (a, b) => if (a =? h)%string then match strip_prefix p b with Some r => F r | None => None end else None
  | None => None
  end.
Proof.
  intro H. rewrite (strip_head_app c h p s H). destruct (split_first c s) as [[a b]|]; [|reflexivity].
  destruct (a =? h)%string; reflexivity.
Qed.

(* Python: s.split(c) *)
Fixpoint split_char (c : ascii) (s : string) : list string :=
  match s with
  | EmptyString => [EmptyString]
  | String d t =>
      if (d =? c)%char then EmptyString :: split_char c t
      else match split_char c t with
           | x :: r => String d x :: r
           | [] => [String d EmptyString]
           end
  end.

(* Python: c.join(l) *)
Fixpoint join (c : ascii) (l : list string) : string :=
  match l with
  | [] => EmptyString
  | [x] => x
  | x :: r => x ++ String c (join c r)
  end.

Lemma split_char_nonempty c s : split_char c s <> [].
Proof.
  destruct s as [|d t]; cbn; [discriminate|].
  destruct (d =? c)%char; [discriminate|]. destruct (split_char c t); discriminate.
Qed.

Lemma join_cons c x r : r <> [] -> join c (x :: r) = x ++ String c (join c r).
Proof. destruct r; [contradiction | reflexivity]. Qed.

Lemma join_split c s : join c (split_char c s) = s.
Proof.
  induction s as [|d t IH]; cbn; [reflexivity|].
  destruct (Ascii.eqb_spec d c) as [->|Hn].
  - rewrite join_cons by apply split_char_nonempty. rewrite IH. reflexivity.
  - pose proof (split_char_nonempty c t) as Hne.
    destruct (split_char c t) as [|x r]; [contradiction|].
    destruct r as [|y r']; cbn in *; rewrite <- IH; reflexivity.
Qed.

Lemma join_no_char c d l : Forall (fun x => has_char c x = false) l -> c <> d -> has_char c (join d l) = false.
Proof.
  intros H Hc. induction H as [|x r Hx Hr IH]; [reflexivity|]. destruct r as [|y r']; [exact Hx|].
  rewrite join_cons by discriminate. rewrite has_char_app. cbn [has_char]. rewrite Hx, IH.
  destruct (Ascii.eqb_spec d c); [congruence | reflexivity].
Qed.

Lemma split_char_no_sep c s : has_char c s = false -> split_char c s = [s].
Proof.
  induction s as [|d t IH]; cbn; intro H; [reflexivity|].
  apply orb_false_iff in H as [Hd Ht]. rewrite Hd, (IH Ht). reflexivity.
Qed.

Lemma split_char_app c a b :
  has_char c a = false -> split_char c (a ++ String c b) = a :: split_char c b.
Proof.
  induction a as [|d t IH]; cbn; intro H.
  - rewrite Ascii.eqb_refl. reflexivity.
  - apply orb_false_iff in H as [Hd Ht]. rewrite Hd, (IH Ht). reflexivity.
Qed.

Lemma split_join c l :
  l <> [] -> Forall (fun x => has_char c x = false) l -> split_char c (join c l) = l.
Proof.
  induction l as [|x r IH]; intros Hne Hall; [contradiction|].
  inversion Hall as [|? ? Hx Hr]; subst.
  destruct r as [|y r'].
  - cbn. apply split_char_no_sep; exact Hx.
  - rewrite join_cons by discriminate. rewrite split_char_app by exact Hx.
    rewrite IH; [reflexivity | discriminate | exact Hr].
Qed.

Lemma split_char_parts c s : Forall (fun x => has_char c x = false) (split_char c s).
Proof.
  induction s as [|d t IH]; cbn; [repeat constructor|].
  destruct (Ascii.eqb_spec d c) as [->|Hn]; [constructor; [reflexivity | exact IH]|].
  destruct (split_char c t) as [|x r]; [repeat constructor; cbn|].
  - destruct (Ascii.eqb_spec d c); [contradiction | reflexivity].
  - inversion IH as [|? ? Hx Hr]; subst. constructor; [|exact Hr]. cbn. rewrite Hx.
    destruct (Ascii.eqb_spec d c); [contradiction | reflexivity].
Qed.

Fixpoint span (p : ascii -> bool) (s : string) : string * string :=
  match s with
  | EmptyString => (EmptyString, EmptyString)
  | String c t => if p c then let (a, b) := span p t in (String c a, b) else (EmptyString, s)
  end.

Definition stops (p : ascii -> bool) (s : string) : bool :=
  match s with EmptyString => true | String c _ => negb (p c) end.

Lemma span_spec p s a b :
  span p s = (a, b) -> s = a ++ b /\ str_forall p a = true /\ stops p b = true.
Proof.
  revert a b. induction s as [|c t IH]; cbn; intros a b H.
  - injection H as <- <-. repeat split; reflexivity.
  - destruct (p c) eqn:Hc.
    + destruct (span p t) as [a' b']. injection H as <- <-.
      destruct (IH a' b' eq_refl) as (-> & Ha & Hb). cbn. rewrite Hc, Ha. repeat split; assumption.
    + injection H as <- <-. cbn. rewrite Hc. repeat split; reflexivity.
Qed.

Lemma span_app p a b : str_forall p a = true -> stops p b = true -> span p (a ++ b) = (a, b).
Proof.
  induction a as [|c t IH]; cbn; intros Ha Hb.
  - destruct b as [|d b']; cbn; [reflexivity|]. cbn in Hb. apply negb_true_iff in Hb. rewrite Hb. reflexivity.
  - apply andb_true_iff in Ha as [Hc Ht]. rewrite Hc, (IH Ht Hb). reflexivity.
Qed.

(* "X$" of Python's re matches X at the very end or just before one final LF *)
Fixpoint chomp (s : string) : string :=
  match s with
  | EmptyString => EmptyString
  | String c t =>
      match t with
      | EmptyString => if (c =? LF)%char then EmptyString else s
      | _ => String c (chomp t)
      end
  end.

Lemma chomp_no_lf s : has_char LF s = false -> chomp s = s.
Proof.
  induction s as [|c t IH]; intro H; [reflexivity|].
  cbn [has_char] in H. apply orb_false_iff in H as [Hc Ht]. cbn [chomp].
  destruct t as [|d t']; [rewrite Hc; reflexivity | rewrite (IH Ht); reflexivity].
Qed.

Lemma chomp_cons c u : u <> "" -> chomp (String c u) = String c (chomp u).
Proof. destruct u; [contradiction | reflexivity]. Qed.

Lemma chomp_app_lf s : chomp (s ++ String LF "") = s.
Proof.
  induction s as [|c t IH]; [reflexivity|].
  rewrite sapp_cons, chomp_cons, IH; [reflexivity|].
  destruct t; discriminate.
Qed.

Lemma split_first_chomp c s : c <> LF ->
  split_first c (chomp s) = match split_first c s with Some (a, b) => Some (a, chomp b) | None => None end.
Proof.
  intro Hc. induction s as [|d t IH]; [reflexivity|]. destruct t as [|e t'].
  - cbn [chomp]. destruct (Ascii.eqb_spec d LF) as [->|]; cbn [split_first].
    + destruct (Ascii.eqb_spec LF c); [congruence | reflexivity].
    + destruct (d =? c)%char; reflexivity.
  - remember (String e t') as u. rewrite chomp_cons by (subst u; discriminate). cbn [split_first].
    destruct (d =? c)%char; [reflexivity|]. rewrite IH. destruct (split_first c u) as [[a b]|]; reflexivity.
Qed.

(* \d+ restricted to ASCII *)
Definition is_num (s : string) : bool := negb (is_empty s) && str_forall is_digit s.

Definition digit_val (c : ascii) : N := (code c - 48)%N.
Definition digit_char (d : N) : ascii := ascii_of_N (48 + d).

Fixpoint dec_acc (acc : N) (s : string) : N :=
  match s with
  | EmptyString => acc
  | String c t => dec_acc (10 * acc + digit_val c)%N t
  end.

(* Python: int(s) for s matching [0-9]+ (leading zeros are dropped by the value) *)
Definition dec_value (s : string) : N := dec_acc 0 s.

Fixpoint print_N_fuel (fuel : nat) (n : N) (acc : string) : string :=
  match fuel with
  | O => acc
  | S f =>
      let acc' := String (digit_char (n mod 10)) acc in
      if (n / 10 =? 0)%N then acc' else print_N_fuel f (n / 10)%N acc'
  end.

(* Python: str(n) for n >= 0.  The fuel (number of binary digits + 1) is always enough: print_N_spec *)
Definition print_N (n : N) : string := print_N_fuel (S (N.to_nat (N.size n))) n EmptyString.

Lemma dec_acc_app a s t : dec_acc a (s ++ t) = dec_acc (dec_acc a s) t.
Proof. revert a. induction s as [|c s IH]; cbn; intro a; [reflexivity | apply IH]. Qed.

Lemma digit_char_spec d : (d < 10)%N ->
  is_digit (digit_char d) = true /\ digit_val (digit_char d) = d.
Proof.
  intro H.
  assert (E : (d = 0 \/ d = 1 \/ d = 2 \/ d = 3 \/ d = 4 \/ d = 5 \/ d = 6 \/ d = 7 \/ d = 8 \/ d = 9)%N) by lia.
  repeat (destruct E as [->|E]; [split; reflexivity|]). subst d. split; reflexivity.
Qed.

Lemma print_N_fuel_S f n acc :
  print_N_fuel (S f) n acc =
  if (n / 10 =? 0)%N then String (digit_char (n mod 10)) acc
  else print_N_fuel f (n / 10)%N (String (digit_char (n mod 10)) acc).
Proof. reflexivity. Qed.

Lemma print_N_fuel_spec f : forall n acc, (n < 2 ^ N.of_nat f)%N ->
  exists d, print_N_fuel (S f) n acc = d ++ acc /\ is_num d = true /\ dec_value d = n.
Proof.
  induction f as [|f IH]; intros n acc Hn.
  - assert (n = 0%N) by (cbn in Hn; lia). subst n. exists "0". repeat split; reflexivity.
  - rewrite print_N_fuel_S.
    assert (Hm : (n mod 10 < 10)%N) by (apply N.mod_lt; lia).
    destruct (digit_char_spec _ Hm) as [Hd Hv].
    destruct (N.eqb_spec (n / 10) 0) as [Hz|Hz].
    + exists (String (digit_char (n mod 10)) ""). repeat split.
      * unfold is_num. cbn. rewrite Hd. reflexivity.
      * unfold dec_value. cbn [dec_acc]. rewrite Hv.
        pose proof (N.div_mod n 10 ltac:(lia)) as E. rewrite Hz in E. lia.
    + assert (Hlt : (n / 10 < 2 ^ N.of_nat f)%N).
      { rewrite Nat2N.inj_succ, N.pow_succ_r' in Hn.
        apply N.div_lt_upper_bound; lia. }
      destruct (IH (n / 10)%N (String (digit_char (n mod 10)) acc) Hlt) as (d & E & Hnum & Hval).
      exists (d ++ String (digit_char (n mod 10)) ""). repeat split.
      * rewrite E, sapp_assoc. reflexivity.
      * unfold is_num in *. apply andb_true_iff in Hnum as [Hne Hall].
        rewrite str_forall_app, Hall. cbn. rewrite Hd.
        destruct d; [discriminate Hne | reflexivity].
      * unfold dec_value in *. rewrite dec_acc_app, Hval. cbn [dec_acc]. rewrite Hv.
        pose proof (N.div_mod n 10 ltac:(lia)) as E'. lia.
Qed.

Lemma print_N_spec n : is_num (print_N n) = true /\ dec_value (print_N n) = n.
Proof.
  unfold print_N.
  destruct (print_N_fuel_spec (N.to_nat (N.size n)) n "") as (d & E & Hnum & Hval).
  - rewrite N2Nat.id. apply N.size_gt.
  - rewrite E, sapp_nil_r. split; assumption.
Qed.

Lemma is_num_nonempty s : is_num s = true -> s <> "".
Proof. unfold is_num. destruct s; cbn; intro H; [discriminate H | discriminate]. Qed.

Lemma is_num_digits s : is_num s = true -> str_forall is_digit s = true.
Proof. unfold is_num. intro H. apply andb_true_iff in H as [_ H]. exact H. Qed.

Lemma is_num_no_char c s : is_num s = true -> is_digit c = false -> has_char c s = false.
Proof. intros H Hc. apply (str_forall_no_char is_digit); [apply is_num_digits; exact H | exact Hc]. Qed.

(* Python: f.format(args...) for format strings whose only fields are "{}"; [None] when there are
   fewer arguments than fields (IndexError) - extra arguments are ignored, as in Python *)
Fixpoint fmt_apply (f : string) (args : list string) : option string :=
  match f with
  | EmptyString => Some EmptyString
  | String c t =>
      match t with
      | String d t' =>
          if ((c =? "{") && (d =? "}"))%char then
            match args with
            | [] => None
            | a :: rest => option_map (append a) (fmt_apply t' rest)
            end
          else option_map (String c) (fmt_apply t args)
      | EmptyString => Some (String c EmptyString)
      end
  end.
