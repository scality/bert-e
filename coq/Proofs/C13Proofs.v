(* Proofs for C13: invariants of the dispatcher model (Model/Dispatcher.v) over every schedule, any number
   of request threads, events and keys; the clauses of Spec/C13Spec.v follow.  Imported by Properties/C13.v only,
   which takes from here [inv_reachable], [winv_reachable], [live_from_init] and the four
   [_b_iff] theorems.
   Two invariants relate the state to the history so far and hold along every run ([run_inv]): [Inv] says that
   every Accepted and Skip mark of the history is justified at its turn (no_loss, dedup); [WInv] follows the
   worker through process_task (worker_ok, served).  Liveness is a ranking argument on the position in the
   queue.  The executable monitors are the clauses, entry by entry ([go_iff]).
   In this order: facts about lists (the last element, [existsb] over a suffix and a window); the [c13f_]
   lemmas, the only ones that read Generated/Facts_C13.v (by evaluation; they stop compiling when a
   regenerated fact no longer says what the proofs need); facts about the model's functions
   ([step_by_turn], [run_inv], [step_hook_frame]); positions in a history; [Inv] (needs c13f_scope,
   c13f_extra_dedup, c13f_job_eqb); [WInv] (c13f_escapes, c13f_status, c13f_fin_ops, c13f_record_hd); liveness
   (c13f_escapes); the monitors; runs of the model as examples. *)
From Coq Require Import List Bool Arith Lia.
Require Import BertE.Base.Lists BertE.Generated.Facts_C13 BertE.Model.Dispatcher BertE.Spec.C13Spec.
Import ListNotations.

Lemma nth_error_snoc_last {A} (h : list A) x : nth_error (h ++ [x]) (length h) = Some x.
Proof. rewrite nth_error_app2, Nat.sub_diag by apply le_n. reflexivity. Qed.

Lemma length_snoc_le {A} (h : list A) x : length h <= length (h ++ [x]).
Proof. rewrite app_length. apply Nat.le_add_r. Qed.

Lemma existsb_nth_error {A} (p : A -> bool) l :
  existsb p l = true <-> exists k x, nth_error l k = Some x /\ p x = true.
Proof.
  rewrite existsb_exists. split.
  - intros (x & Hin & Hp). apply In_nth_error in Hin as (k & Hk). exists k, x. split; assumption.
  - intros (k & x & Hk & Hp). exists x. split; [eapply nth_error_In; exact Hk|exact Hp].
Qed.

Lemma existsb_skipn {A} (p : A -> bool) l n :
  existsb p (skipn n l) = true <-> exists k x, n <= k /\ nth_error l k = Some x /\ p x = true.
Proof.
  rewrite existsb_nth_error. split.
  - intros (d & x & Hd & Hp). rewrite nth_error_skipn in Hd. exists (n + d), x. split; [lia|]. split; assumption.
  - intros (k & x & Hk & Hx & Hp). exists (k - n), x. rewrite nth_error_skipn.
    replace (n + (k - n)) with k by lia. split; assumption.
Qed.

Lemma existsb_window {A} (p : A -> bool) l a n :
  existsb p (firstn n (skipn a l)) = true
  <-> exists k x, a <= k /\ k < a + n /\ nth_error l k = Some x /\ p x = true.
Proof.
  rewrite existsb_nth_error. split.
  - intros (d & x & Hd & Hp). apply nth_error_firstn in Hd as (Hd & Hx). rewrite nth_error_skipn in Hx.
    exists (a + d), x. repeat split; try assumption; lia.
  - intros (k & x & Hk & Hk' & Hx & Hp). exists (k - a), x. rewrite nth_error_firstn, nth_error_skipn.
    replace (a + (k - a)) with k by lia. repeat split; try assumption; lia.
Qed.

(* put_job looks at the pending queue only *)
Lemma c13f_scope : dedup_pending = true /\ dedup_current = false /\ dedup_done = false.
Proof. vm_compute. repeat split. Qed.

Lemma c13f_extra_dedup s e : extra_dedup s e = false.
Proof. unfold extra_dedup. destruct c13f_scope as (_ & -> & ->). reflexivity. Qed.

(* process_task catches every outcome kind: nothing escapes *)
Lemma c13f_escapes o : escapes o = false.
Proof. destruct o; vm_compute; reflexivity. Qed.

Lemma c13f_status o : fst (status_of o) = spec_status o.
Proof. destruct o; vm_compute; reflexivity. Qed.

Definition has (o : fin_op) (l : list fin_op) : bool :=
  existsb (fun x => match o, x with FRecord, FRecord | FClear, FClear => true | _, _ => false end) l.

(* both state-changing calls sit in the finally block *)
Lemma c13f_fin_ops : has FRecord fin_ops = true /\ has FClear fin_ops = true.
Proof. vm_compute. split; reflexivity. Qed.

(* tasks_done keeps at least the most recent job (its maxlen is not 0) *)
Lemma c13f_record_hd d x : hd_error (record_done d x) = Some x.
Proof. reflexivity. Qed.

(* job equality of the code (identity, PullRequestJob.__eq__, CommitJob.__eq__, reflected call) is the
   "same target" relation of the statement *)
Lemma c13f_job_eqb a b : job_eqb a b = same_target a b.
Proof.
  destruct a as [ka ra ya ua oa], b as [kb rb yb ub ob].
  unfold job_eqb, same_target, same_obj, py_eq. cbn [jk jrepo jkey juid].
  (* for each pair of classes both sides evaluate to the same expression in the fields *)
  destruct ka, kb; vm_compute eq_defined; vm_compute eq_uses; reflexivity.
Qed.

Lemma same_target_refl e : same_target e e = true.
Proof. unfold same_target. rewrite Nat.eqb_refl. reflexivity. Qed.

Lemma nth_error_upd {A} (l : list A) t x t' y :
  nth_error (upd l t x) t' = Some y -> y = x \/ nth_error l t' = Some y.
Proof.
  revert t t'. induction l as [|z l IH]; intros [|t] [|t'] H; cbn in H; try discriminate H.
  - left. congruence.
  - right. exact H.
  - right. exact H.
  - exact (IH t t' H).
Qed.

Lemma upd_same {A} (l : list A) t x : nth_error l t = Some x -> upd l t x = l.
Proof.
  revert t. induction l as [|z l IH]; intros [|t] H; try discriminate H; cbn in *.
  - congruence.
  - rewrite (IH t H). reflexivity.
Qed.

Lemma scan_from_In q e : forall i,
  match scan_from i q e with
  | SNone => True
  | SFound it => In it q /\ same_target it e = true
  | SCmp _ it => In it q
  end.
Proof.
  induction q as [|x q IH]; intro i; cbn [scan_from]; [exact I|].
  destruct (same_obj x e) eqn:E.
  - split; [left; reflexivity|]. unfold same_target. unfold same_obj in E. rewrite E. reflexivity.
  - destruct (needs_py x e); [left; reflexivity|].
    specialize (IH (S i)). destruct (scan_from (S i) q e); [exact I|split; [right|]; apply IH|right; exact IH].
Qed.

Lemma step_by_turn s (P : nat -> state -> option mark -> Prop) :
  (forall s1 m, step_worker s = (s1, m) -> P 0 (tick s1) m) ->
  (forall t pc s1 m, nth_error (hooks s) t = Some pc -> step_hook s t pc = (s1, m) -> P (S t) (tick s1) m) ->
  (forall t, P (S t) (tick s) None) ->
  forall tid s' m, step s tid = (s', m) -> P tid s' m.
Proof.
  intros Hw Hh Hn [|t] s' m H; unfold step in H.
  - destruct (step_worker s) as [s1 m1] eqn:E. injection H as <- <-. apply Hw. reflexivity.
  - destruct (nth_error (hooks s) t) as [pc|] eqn:En.
    + destruct (step_hook s t pc) as [s1 m1] eqn:E. injection H as <- <-. exact (Hh t pc s1 m1 En E).
    + injection H as <- <-. apply Hn.
Qed.

Lemma run_inv (P : state -> list entry -> Prop) :
  (forall s h, P s h -> forall tid s' m, step s tid = (s', m) -> P s' (h ++ [observe m s'])) ->
  forall sch s h, P s h -> P (snd (run s sch)) (h ++ fst (run s sch)).
Proof.
  intros HP. induction sch as [|t sch IH]; intros s h H; cbn [run].
  - cbn [fst snd]. rewrite app_nil_r. exact H.
  - destruct (step s t) as [s' m] eqn:E. specialize (IH s' _ (HP _ _ H _ _ _ E)).
    destruct (run s' sch) as [h1 sf]. cbn [fst snd] in *. rewrite <- app_assoc in IH. exact IH.
Qed.

Lemma run_app a : forall s b,
  run s (a ++ b) = (fst (run s a) ++ fst (run (snd (run s a)) b), snd (run (snd (run s a)) b)).
Proof.
  induction a as [|t a IH]; intros s b; cbn [app run].
  - cbn [fst snd app]. destruct (run s b); reflexivity.
  - destruct (step s t) as [s' m]. rewrite IH. destruct (run s' a) as [h1 s1]. cbn [fst snd].
    destruct (run s1 b) as [h2 s2]. reflexivity.
Qed.

Lemma run_length sch : forall s, length (fst (run s sch)) = length sch.
Proof.
  induction sch as [|t sch IH]; intro s; cbn [run]; [reflexivity|].
  destruct (step s t) as [s' m]. specialize (IH s'). destruct (run s' sch) as [h sf]. cbn [fst length] in *.
  rewrite IH. reflexivity.
Qed.

Definition quiet_mark (m : option mark) : Prop :=
  match m with Some (MStart _) | Some (MFinish _ _) | Some (MDied _) => False | _ => True end.

Lemma after_scan_quiet s a e todo r pc m : after_scan s a e todo r = (pc, m) -> quiet_mark m.
Proof.
  unfold after_scan. destruct r; [destruct (extra_dedup s e)| |]; intro H; injection H as <- <-; exact I.
Qed.

Lemma step_hook_frame s t pc s1 m :
  step_hook s t pc = (s1, m) ->
  (exists l, pending s1 = pending s ++ l) /\ worker s1 = worker s /\ current s1 = current s /\ done s1 = done s
  /\ clock s1 = clock s /\ quiet_mark m.
Proof.
  intro H. assert (N : exists l, pending s = pending s ++ l) by (exists []; symmetry; apply app_nil_r).
  destruct pc as [todo|a e todo|a e todo i item start|a e todo|a e todo|a e todo]; cbn [step_hook] in H.
  - destruct todo; injection H as <- <-; repeat split; exact N.
  - destruct (after_scan s a e todo _) as [pc' m'] eqn:E. injection H as <- <-.
    repeat split; [exact N|exact (after_scan_quiet _ _ _ _ _ _ _ E)].
  - destruct (job_eqb item e); [injection H as <- <-; repeat split; exact N|].
    destruct (negb _); [injection H as <- <-; repeat split; exact N|].
    destruct (after_scan s a e todo _) as [pc' m'] eqn:E. injection H as <- <-.
    repeat split; [exact N|exact (after_scan_quiet _ _ _ _ _ _ _ E)].
  - injection H as <- <-. repeat split. exists [e]. reflexivity.
  - injection H as <- <-. repeat split. exact N.
  - injection H as <- <-. repeat split. exact N.
Qed.

Lemma mark_at_lt h k m : mark_at h k m -> k < length h.
Proof. intros (en & Hn & _). apply nth_error_Some. rewrite Hn. discriminate. Qed.

Lemma mark_at_app h h' k m : mark_at h k m -> mark_at (h ++ h') k m.
Proof. intros (x & Hn & Hm). exists x. split; [apply nth_error_app_Some; exact Hn|exact Hm]. Qed.

Lemma mark_at_snoc h en k m :
  mark_at (h ++ [en]) k m -> mark_at h k m \/ (k = length h /\ e_mark en = Some m).
Proof.
  intros (x & Hn & Hm). apply nth_error_snoc in Hn as [Hn|[-> ->]].
  - left. exists x. split; assumption.
  - right. split; [reflexivity|exact Hm].
Qed.

Lemma mark_at_new h en m : e_mark en = Some m -> mark_at (h ++ [en]) (length h) m.
Proof. intro H. exists en. split; [apply nth_error_snoc_last|exact H]. Qed.

Lemma mark_at_fun h k m m' : mark_at h k m -> mark_at h k m' -> m = m'.
Proof. intros (x & Hn & Hm) (x' & Hn' & Hm'). congruence. Qed.

Definition Due (s : state) (h : list entry) (a : nat) (j : job) : Prop :=
  In j (pending s) \/ exists k, a < k /\ mark_at h k (MStart j).
Definition Seen (h : list entry) (a b : nat) (j : job) : Prop :=
  exists k en, a <= k /\ k < b /\ nth_error h k = Some en /\ In j (e_pending en).

Definition Covered (s : state) (h : list entry) (a : nat) (e : job) : Prop :=
  mark_at h a (MArrive e) /\ exists j, same_target j e = true /\ Due s h a j.

Definition hook_inv (s : state) (h : list entry) (pc : hpc) : Prop :=
  match pc with
  | HIdle _ => True
  | HLine a e _ | HPut a e _ => mark_at h a (MArrive e)
  | HCmp a e _ _ item _ => mark_at h a (MArrive e) /\ Due s h a item /\ Seen h a (length h) item
  | HPutLog a e _ | HSkipLog a e _ => Covered s h a e
  end.

Definition mark_ok (s : state) (h : list entry) (k : nat) (m : option mark) : Prop :=
  match m with
  | Some (MAccepted a) => exists e, Covered s h a e
  | Some (MSkip a) => exists e, mark_at h a (MArrive e) /\ exists j, same_target j e = true /\ Seen h a k j
  | _ => True
  end.

Record Inv (s : state) (h : list entry) : Prop := mkInv {
  inv_clock : clock s = length h;
  (* the last entry shows the queue as it is *)
  inv_last : forall en, nth_error h (length h - 1) = Some en -> e_pending en = pending s;
  inv_hooks : forall t pc, nth_error (hooks s) t = Some pc -> hook_inv s h pc;
  inv_marks : forall k en, nth_error h k = Some en -> mark_ok s h k (e_mark en)
}.

(* the only way out of the queue is the worker's get *)
Definition fate (s s' : state) (m : option mark) : Prop :=
  forall j, In j (pending s) -> In j (pending s') \/ m = Some (MStart j).

Lemma Seen_mono h h' a b b' j : b <= b' -> Seen h a b j -> Seen (h ++ h') a b' j.
Proof.
  intros Hb (k & x & Hk & Hk' & Hn & Hin). exists k, x.
  split; [exact Hk|]. split; [lia|]. split; [apply nth_error_app_Some; exact Hn|exact Hin].
Qed.

Section Mono.
  Variables (s s' : state) (h : list entry) (m : option mark).
  Hypothesis Hf : fate s s' m.
  Let h' := h ++ [observe m s'].

  Lemma Due_mono a j : a < length h -> Due s h a j -> Due s' h' a j.
  Proof.
    intros Ha [Hin|(k & Hk & Hm)].
    - destruct (Hf j Hin) as [Hin' | ->]; [left; exact Hin'|].
      right. exists (length h). split; [exact Ha|]. apply mark_at_new. reflexivity.
    - right. exists k. split; [exact Hk|]. apply mark_at_app. exact Hm.
  Qed.

  Lemma Covered_mono a e : Covered s h a e -> Covered s' h' a e.
  Proof.
    intros (HA & j & Hj & HG). split; [apply mark_at_app; exact HA|]. exists j. split; [exact Hj|].
    exact (Due_mono _ _ (mark_at_lt _ _ _ HA) HG).
  Qed.

  Lemma hook_inv_mono pc : hook_inv s h pc -> hook_inv s' h' pc.
  Proof.
    destruct pc as [todo|a e todo|a e todo i item start|a e todo|a e todo|a e todo]; cbn [hook_inv];
      try apply mark_at_app; try apply Covered_mono.
    - exact (fun H => H).
    - intros (HA & HG & HS). split; [apply mark_at_app; exact HA|].
      split; [exact (Due_mono _ _ (mark_at_lt _ _ _ HA) HG)|].
      exact (Seen_mono _ _ _ _ _ _ (length_snoc_le _ _) HS).
  Qed.

  Lemma mark_ok_mono k x : mark_ok s h k x -> mark_ok s' h' k x.
  Proof.
    intro H. destruct x as [[| |a|a| | | |]|]; cbn [mark_ok] in *; try exact I.
    - destruct H as (e & HA & j & Hj & HS). exists e. split; [apply mark_at_app; exact HA|].
      exists j. split; [exact Hj|]. exact (Seen_mono _ _ _ _ _ _ (le_n _) HS).
    - destruct H as (e & HC). exists e. exact (Covered_mono _ _ HC).
  Qed.
End Mono.

(* s' is the state the turn leads to before the clock ticks *)
Lemma Inv_tick s h s' m :
  Inv s h -> fate s s' m -> clock s' = clock s ->
  (forall t pc, nth_error (hooks s') t = Some pc ->
                nth_error (hooks s) t = Some pc \/ hook_inv s' (h ++ [observe m s']) pc) ->
  mark_ok s h (length h) m ->
  Inv (tick s') (h ++ [observe m (tick s')]).
Proof.
  intros [Ic Is Ih Im] Of Oc Oh Om. constructor.
  - cbn. rewrite Oc, Ic, app_length, Nat.add_comm. reflexivity.
  - intros en H. rewrite app_length, Nat.add_sub, nth_error_snoc_last in H. injection H as <-. reflexivity.
  - intros t pc H. destruct (Oh t pc H) as [H'|H']; [|exact H'].
    exact (hook_inv_mono _ _ _ _ Of _ (Ih t pc H')).
  - intros k en H. apply (mark_ok_mono _ _ _ _ Of). apply nth_error_snoc in H as [H|[-> ->]].
    + exact (Im k en H).
    + exact Om.
Qed.

Lemma after_scan_sound s h a e todo i q pc' m :
  Inv s h -> mark_at h a (MArrive e) -> incl q (pending s) ->
  after_scan s a e todo (scan_from i q e) = (pc', m) ->
  hook_inv s (h ++ [observe m s]) pc' /\ mark_ok s h (length h) m.
Proof.
  intros Hi HA Hq H. pose proof (mark_at_lt _ _ _ HA) as Hlt.
  (* a job in the queue was seen waiting at the last turn, which is not before turn a *)
  assert (Hs : forall j, In j (pending s) -> Seen h a (length h) j).
  { intros j Hj. destruct (nth_error h (length h - 1)) as [en|] eqn:E; [|apply nth_error_None in E; lia].
    exists (length h - 1), en. rewrite (inv_last _ _ Hi en E).
    split; [lia|]. split; [lia|]. split; [exact E|exact Hj]. }
  pose proof (scan_from_In q e i) as S. apply (mark_at_app _ [observe m s]) in HA as HA'.
  unfold after_scan in H. destruct (scan_from i q e) as [|it|k it].
  - rewrite c13f_extra_dedup in H. injection H as <- <-. split; [exact HA'|exact I].
  - injection H as <- <-. destruct S as (Hin & Ht). apply Hq in Hin. split.
    + split; [exact HA'|]. exists it. split; [exact Ht|]. left. exact Hin.
    + exists e. split; [exact HA|]. exists it. split; [exact Ht|exact (Hs _ Hin)].
  - injection H as <- <-. apply Hq in S. split; [|exact I].
    split; [exact HA'|]. split; [left; exact S|].
    exact (Seen_mono _ _ _ _ _ _ (length_snoc_le _ _) (Hs _ S)).
Qed.

Lemma Inv_hook s h t pc s1 m :
  Inv s h -> nth_error (hooks s) t = Some pc -> step_hook s t pc = (s1, m) ->
  Inv (tick s1) (h ++ [observe m (tick s1)]).
Proof.
  intros Hi Hpc H. destruct (step_hook_frame _ _ _ _ _ H) as ((l & Hl) & _ & _ & _ & Hc & _).
  assert (Hf : fate s s1 m) by (intros j Hj; left; rewrite Hl; apply in_or_app; left; exact Hj).
  (* it is enough to look at the thread's new program counter; set_hook changes nothing that hook_inv or
     observe reads, so facts about s serve for s1 by conversion *)
  assert (K : forall pc', hooks s1 = upd (hooks s) t pc' ->
              hook_inv s1 (h ++ [observe m s1]) pc' /\ mark_ok s h (length h) m ->
              Inv (tick s1) (h ++ [observe m (tick s1)])).
  { intros pc' Hh (Hn & Hm). apply (Inv_tick _ _ _ _ Hi Hf Hc); [|exact Hm].
    intros t' pc0 H'. rewrite Hh in H'.
    apply nth_error_upd in H' as [->|H']; [right; exact Hn|left; exact H']. }
  pose proof (inv_hooks _ _ Hi _ _ Hpc) as HI.
  destruct pc as [todo|a e todo|a e todo i item start|a e todo|a e todo|a e todo]; cbn [step_hook hook_inv] in H, HI.
  - destruct todo as [|e todo]; injection H as <- <-.
    + apply (K (HIdle [])); [symmetry; apply upd_same; exact Hpc|split; exact I].
    + apply (K (HLine (clock s) e todo) eq_refl). split; [|exact I].
      cbn. rewrite (inv_clock _ _ Hi). apply mark_at_new. reflexivity.
  - rewrite (proj1 c13f_scope) in H.
    destruct (after_scan s a e todo _) as [pc' m'] eqn:E. injection H as <- <-.
    exact (K pc' eq_refl (after_scan_sound s h a e todo _ _ pc' m' Hi HI (incl_refl _) E)).
  - destruct HI as (HA & HG & HS). destruct (job_eqb item e) eqn:Eeq; [|destruct (negb _)].
    + injection H as <- <-. rewrite c13f_job_eqb in Eeq. apply (K (HSkipLog a e todo) eq_refl). split.
      * apply (Covered_mono _ _ _ _ Hf). split; [exact HA|]. exists item. split; assumption.
      * exists e. split; [exact HA|]. exists item. split; assumption.
    + injection H as <- <-. exact (K (HIdle todo) eq_refl (conj I I)).
    + destruct (after_scan s a e todo _) as [pc' m'] eqn:E. injection H as <- <-.
      refine (K pc' eq_refl (after_scan_sound s h a e todo _ _ pc' m' Hi HA _ E)).
      intros x Hx. exact (In_skipn _ _ _ Hx).
  - injection H as <- <-. apply (K (HPutLog a e todo) eq_refl). split; [|exact I].
    split; [apply mark_at_app; exact HI|]. exists e. split; [apply same_target_refl|].
    left. cbn. apply in_or_app. right. left. reflexivity.
  - injection H as <- <-. exact (K (HIdle todo) eq_refl (conj I (ex_intro _ e HI))).
  - injection H as <- <-. exact (K (HIdle todo) eq_refl (conj I (ex_intro _ e HI))).
Qed.

Lemma Inv_worker s h s1 m :
  Inv s h -> step_worker s = (s1, m) -> Inv (tick s1) (h ++ [observe m (tick s1)]).
Proof.
  intros Hi H.
  enough (fate s s1 m /\ hooks s1 = hooks s /\ clock s1 = clock s /\ mark_ok s h (length h) m)
    as (Hf & Hh & Hc & Hm).
  { apply (Inv_tick _ _ _ _ Hi Hf Hc); [|exact Hm]. intros t pc H'. left. rewrite <- Hh. exact H'. }
  unfold step_worker in H. unfold fate.
  destruct (worker s) as [|j [|[|] ops]|];
    [destruct (pending s) as [|j rest]|destruct (escapes (jout j))| | |]; injection H as <- <-.
  (* in each of the seven cases the last three claims hold by evaluation *)
  all: split; [|repeat split].
  (* and the queue is as it was, except at get() *)
  all: try (intros x Hx; left; exact Hx).
  - intros x [].
  - intros x [<-|Hx]; [right; reflexivity|left; exact Hx].
Qed.

Lemma Inv_step s h : Inv s h -> forall tid s' m, step s tid = (s', m) -> Inv s' (h ++ [observe m s']).
Proof.
  intro Hi. apply step_by_turn.
  - intros s1 m. apply Inv_worker. exact Hi.
  - intros t pc s1 m. apply Inv_hook. exact Hi.
  - intros _. apply (Inv_tick _ _ _ _ Hi); [intros j Hj; left; exact Hj|reflexivity|left; assumption|exact I].
Qed.

Lemma Inv_init events : Inv (init events) [].
Proof.
  constructor.
  - reflexivity.
  - intros en H. discriminate H.
  - intros t pc H. cbn [init hooks] in H. apply nth_error_In in H. apply in_map_iff in H as (x & <- & _).
    exact I.
  - intros [|k] en H; discriminate H.
Qed.

Theorem inv_reachable events sch : Inv (final events sch) (history events sch).
Proof. exact (run_inv Inv Inv_step sch _ [] (Inv_init events)). Qed.

Definition in_hand (w : wpc) (j : job) : Prop := match w with WFin j0 _ => j = j0 | _ => False end.
Definition Served (h : list entry) (w : wpc) : Prop :=
  forall k j, mark_at h k (MStart j) -> (exists k' st, k < k' /\ mark_at h k' (MFinish j st)) \/ in_hand w j.

Record WInv (s : state) (h : list entry) : Prop := mkWInv {
  w_served : Served h (worker s);
  (* the marker is cleared and the job recorded once the finally calls that do so have run *)
  w_pc : match worker s with
         | WGet => True
         | WFin j ops =>
             (has FClear ops = false -> current s = None)
             /\ (has FRecord ops = false -> hd_error (done s) = Some (j, status_of (jout j)))
             /\ exists k, mark_at h k (MStart j)
         | WDead => False
         end;
  w_ok : worker_ok h
}.

Lemma Served_snoc h w w' en :
  Served h w ->
  (forall j, in_hand w j -> in_hand w' j \/ exists st, e_mark en = Some (MFinish j st)) ->
  (forall j, e_mark en = Some (MStart j) -> in_hand w' j) ->
  Served (h ++ [en]) w'.
Proof.
  intros S Hw Hs k j H. apply mark_at_snoc in H as [H|[-> H]]; [|right; exact (Hs j H)].
  destruct (S k j H) as [(k' & st & Hk & F)|Hh].
  - left. exists k', st. split; [exact Hk|apply mark_at_app; exact F].
  - destruct (Hw j Hh) as [Hh'|(st & E)]; [right; exact Hh'|].
    left. exists (length h), st. split; [exact (mark_at_lt _ _ _ H)|apply mark_at_new; exact E].
Qed.

(* what [worker_ok] asks of a new last entry *)
Definition new_entry_ok (h : list entry) (en : entry) : Prop :=
  e_worker en <> WIsDead
  /\ match e_mark en with
     | Some (MDied _) => False
     | Some (MFinish j st) =>
         e_current en = None /\ hd_error (e_done en) = Some (j, st) /\ e_worker en = WAtGet
         /\ fst st = spec_status (jout j)
         /\ exists k', k' < length h /\ mark_at h k' (MStart j)
     | _ => True
     end.

Lemma worker_ok_snoc h en : worker_ok h -> new_entry_ok h en -> worker_ok (h ++ [en]).
Proof.
  intros W (N1 & N2) k x Hn.
  apply nth_error_snoc in Hn as [Hn|[-> ->]].
  - destruct (W k x Hn) as (W1 & W2 & W3). split; [exact W1|]. split; [exact W2|].
    intros j st Hm. destruct (W3 j st Hm) as (A & B & C & D & k' & Hk & Hs).
    repeat split; try assumption. exists k'. split; [exact Hk|apply mark_at_app; exact Hs].
  - split; [exact N1|]. split; [intros j Hm|intros j st Hm]; rewrite Hm in N2; [exact N2|].
    destruct N2 as (A & B & C & D & k' & Hk & Hs).
    repeat split; try assumption. exists k'. split; [exact Hk|apply mark_at_app; exact Hs].
Qed.

Lemma WInv_quiet s h s' m :
  WInv s h -> worker s' = worker s -> current s' = current s -> done s' = done s -> quiet_mark m ->
  WInv s' (h ++ [observe m s']).
Proof.
  intros [S P W] Ew Ec Ed Q. constructor.
  - rewrite Ew. apply (Served_snoc _ _ _ _ S); [intros j Hj; left; exact Hj|].
    intros j E. cbn in E. rewrite E in Q. destruct Q.
  - rewrite Ew, Ec, Ed. destruct (worker s) as [|j ops|]; [exact I| |exact P].
    destruct P as (Pc & Pd & k0 & Ps). split; [exact Pc|]. split; [exact Pd|].
    exists k0. apply mark_at_app. exact Ps.
  - apply worker_ok_snoc; [exact W|]. split.
    + cbn. rewrite Ew. destruct (worker s); [discriminate|discriminate|destruct P].
    + destruct m as [[]|]; try exact I; destruct Q.
Qed.

Lemma WInv_finally s h s' j op ops :
  WInv s h -> worker s = WFin j (op :: ops) -> worker s' = WFin j ops ->
  (has FClear ops = false -> current s' = None) ->
  (has FRecord ops = false -> hd_error (done s') = Some (j, status_of (jout j))) ->
  WInv s' (h ++ [observe None s']).
Proof.
  intros [S P W] Ew Ew' Pc Pd. rewrite Ew in S, P. destruct P as (_ & _ & k0 & Ps). constructor; rewrite ?Ew'.
  - apply (Served_snoc _ _ _ _ S); [|discriminate]. intros j' Hj. left. exact Hj.
  - split; [exact Pc|]. split; [exact Pd|]. exists k0. apply mark_at_app. exact Ps.
  - apply worker_ok_snoc; [exact W|]. split; [|exact I]. cbn. rewrite Ew'. discriminate.
Qed.

Lemma WInv_worker s h s1 m :
  WInv s h -> step_worker s = (s1, m) -> WInv (tick s1) (h ++ [observe m (tick s1)]).
Proof.
  intros Hi H. pose proof Hi as [S P W]. unfold step_worker in H.
  destruct (worker s) as [|j [|[|] ops]|] eqn:Ew.
  - destruct (pending s) as [|j rest]; injection H as <- <-.
    + (* blocked in get() *)
      exact (WInv_quiet s h (tick s) None Hi eq_refl eq_refl eq_refl I).
    + (* get() *)
      constructor.
      * apply (Served_snoc _ _ _ _ S); [intros j' []|]. intros j' E. injection E as <-. reflexivity.
      * destruct c13f_fin_ops as (Hr & Hc). cbn [tick worker]. rewrite Hr, Hc.
        split; [discriminate|]. split; [discriminate|]. exists (length h). apply mark_at_new. reflexivity.
      * apply worker_ok_snoc; [exact W|]. split; [discriminate|exact I].
  - (* return from process_task *)
    rewrite c13f_escapes in H. injection H as <- <-. destruct P as (Pc & Pd & k0 & Ps).
    constructor; [|exact I|].
    + apply (Served_snoc _ _ _ _ S); [|discriminate].
      intros j' Hj. cbn in Hj. subst j'. right. exists (status_of (jout j)). reflexivity.
    + apply worker_ok_snoc; [exact W|]. split; [discriminate|].
      split; [exact (Pc eq_refl)|]. split; [exact (Pd eq_refl)|]. split; [reflexivity|].
      split; [apply c13f_status|]. exists k0. split; [exact (mark_at_lt _ _ _ Ps)|exact Ps].
  - (* tasks_done.appendleft *)
    injection H as <- <-. destruct P as (Pc & _).
    apply (WInv_finally s h _ j FRecord ops Hi Ew); [reflexivity|exact Pc|]. intros _. apply c13f_record_hd.
  - (* status.pop *)
    injection H as <- <-. destruct P as (_ & Pd & _).
    apply (WInv_finally s h _ j FClear ops Hi Ew); [reflexivity| |exact Pd]. intros _. reflexivity.
  - destruct P.
Qed.

Lemma WInv_step s h : WInv s h -> forall tid s' m, step s tid = (s', m) -> WInv s' (h ++ [observe m s']).
Proof.
  intro Hi. apply step_by_turn.
  - intros s1 m. apply WInv_worker. exact Hi.
  - intros t pc s1 m _ E. destruct (step_hook_frame _ _ _ _ _ E) as (_ & A & B & C & _ & D).
    apply (WInv_quiet s); assumption.
  - intros _. exact (WInv_quiet s h (tick s) None Hi eq_refl eq_refl eq_refl I).
Qed.

Lemma WInv_init events : WInv (init events) [].
Proof.
  constructor.
  - intros [|k] j (en & Hn & _); discriminate Hn.
  - exact I.
  - intros [|k] en Hn; discriminate Hn.
Qed.

Theorem winv_reachable events sch : WInv (final events sch) (history events sch).
Proof. exact (run_inv WInv WInv_step sch _ [] (WInv_init events)). Qed.

(* turns the worker needs before it is back at get() *)
Definition wrank (w : wpc) : nat :=
  match w with WGet => 0 | WFin _ ops => S (length ops) | WDead => 0 end.
Definition cycle : nat := length fin_ops + 2.          (* get, the finally calls, return *)
(* worker turns after which the job at position p of the queue has been started *)
Definition rank (s : state) (p : nat) : nat := wrank (worker s) + p * cycle + 1.

Lemma step_progress s p j :
  worker s <> WDead -> nth_error (pending s) p = Some j ->
  forall t s' m, step s t = (s', m) ->
  m = Some (MStart j)
  \/ worker s' <> WDead
     /\ exists p', nth_error (pending s') p' = Some j
                  /\ rank s' p' + match t with 0 => 1 | S _ => 0 end <= rank s p.
Proof.
  intros Hw Hp. apply step_by_turn.
  - (* the worker *)
    intros s1 m H. unfold step_worker in H.
    (* a finally call or the return: one turn less to go *)
    assert (R : forall s1, wrank (worker s) = S (wrank (worker s1)) -> rank s1 p + 1 <= rank s p).
    { intros s0 E. unfold rank. rewrite E, Nat.add_1_r. apply Nat.add_lt_mono_r, Nat.add_lt_mono_r, Nat.lt_succ_diag_r. }
    destruct (worker s) as [|j0 ops|] eqn:Ew.
    + (* get(): the job is taken, or moves up by one place *)
      destruct (pending s) as [|j0 rest]; [destruct p; discriminate Hp|]. injection H as <- <-.
      destruct p as [|p]; [left; injection Hp as <-; reflexivity|].
      right. split; [discriminate|]. exists p. split; [exact Hp|]. unfold rank, cycle. rewrite Ew. cbn. lia.
    + destruct ops as [|[|] ops]; [rewrite c13f_escapes in H| |]; injection H as <- <-.
      all: right; split; [discriminate|]; exists p; split; [exact Hp|apply R; reflexivity].
    + destruct Hw. reflexivity.
  - (* a request thread: the job keeps its place, the worker its state *)
    intros t pc s1 m _ E. right. destruct (step_hook_frame _ _ _ _ _ E) as ((l & B) & A & _).
    unfold rank. cbn [tick worker pending]. rewrite A, B. split; [exact Hw|]. exists p.
    split; [apply nth_error_app_Some; exact Hp|apply Nat.eq_le_incl, Nat.add_0_r].
  - intros t. right. split; [exact Hw|]. exists p. split; [exact Hp|apply Nat.eq_le_incl, Nat.add_0_r].
Qed.

Theorem live_holds sch : forall s p j,
  worker s <> WDead -> nth_error (pending s) p = Some j -> rank s p <= count_occ Nat.eq_dec sch 0 ->
  exists k, mark_at (fst (run s sch)) k (MStart j).
Proof.
  induction sch as [|t sch IH]; intros s p j Hw Hp Hc.
  - unfold rank in Hc. cbn in Hc. lia.
  - cbn [run]. destruct (step s t) as [s' m] eqn:E. specialize (IH s').
    destruct (run s' sch) as [h sf]. cbn [fst] in *.
    destruct (step_progress _ _ _ Hw Hp _ _ _ E) as [->|(Hw' & p' & Hp' & Hr)].
    + exists 0, (observe (Some (MStart j)) s'). split; reflexivity.
    + destruct (IH p' j Hw' Hp') as (k & Hk); [|exists (S k); exact Hk].
      destruct t as [|t]; [rewrite count_occ_cons_eq in Hc by reflexivity|rewrite count_occ_cons_neq in Hc by discriminate];
        lia.
Qed.

(* C13_live: whatever happened so far (sch1), a job waiting at position p is started during any continuation
   (sch2) that gives the worker at least [rank] turns - however the other threads are interleaved *)
Theorem live_from_init events sch1 sch2 p j :
  nth_error (pending (final events sch1)) p = Some j ->
  rank (final events sch1) p <= count_occ Nat.eq_dec sch2 0 ->
  exists k, length sch1 <= k /\ mark_at (history events (sch1 ++ sch2)) k (MStart j).
Proof.
  intros Hp Hc.
  (* from the initial state the worker is never dead *)
  assert (Hw : worker (final events sch1) <> WDead).
  { intro E. pose proof (w_pc _ _ (winv_reachable events sch1)) as P. rewrite E in P. exact P. }
  destruct (live_holds sch2 _ p j Hw Hp Hc) as (k & en & Hn & Hm).
  exists (length sch1 + k). split; [apply Nat.le_add_r|]. exists en. split; [|exact Hm].
  unfold history. rewrite run_app. cbn [fst].
  rewrite nth_error_app2; rewrite run_length; [|apply Nat.le_add_r].
  rewrite Nat.add_comm, Nat.add_sub. exact Hn.
Qed.

(* a monitor that walks the history with an accumulator checks every entry against what was accumulated over
   the entries before it and against the entries after it *)
Lemma go_iff {A B} (next : B -> A -> B) (chk : B -> A -> list A -> bool) (go : B -> list A -> bool) :
  (forall a, go a [] = true) -> (forall a x tl, go a (x :: tl) = chk a x tl && go (next a x) tl) ->
  forall rest a, go a rest = true <->
    forall k x, nth_error rest k = Some x -> chk (fold_left next (firstn k rest) a) x (skipn (S k) rest) = true.
Proof.
  intros H0 H1. induction rest as [|y rest IH]; intro a.
  - split; [intros _ [|k] x E; discriminate E|intros _; apply H0].
  - rewrite H1, andb_true_iff, IH. split.
    + intros (Hc & Ht) [|k] x E; [injection E as <-; exact Hc|exact (Ht k x E)].
    + intro H. split; [exact (H 0 y eq_refl)|intros k x E; exact (H (S k) x E)].
Qed.

Lemma count_firstn {A} (l : list A) : forall k x i,
  nth_error l k = Some x -> fold_left (fun i _ => S i) (firstn k l) i = i + k.
Proof.
  induction l as [|y l IH]; intros [|k] x i H; try discriminate H; cbn.
  - symmetry. apply Nat.add_0_r.
  - rewrite (IH k x _ H). apply Nat.add_succ_comm.
Qed.

Lemma before_In {A} (l : list A) k x :
  In x (fold_left (fun b y => y :: b) (firstn k l) []) <-> exists k', k' < k /\ nth_error l k' = Some x.
Proof.
  assert (E : forall l b, In x (fold_left (fun b y => y :: b) l b) <-> In x l \/ In x b).
  { clear. induction l as [|y l IH]; intro b; cbn; [tauto|]. rewrite IH. cbn. tauto. }
  rewrite E. split.
  - intros [H|[]]. apply In_nth_error in H as (k' & H). apply nth_error_firstn in H. exists k'. exact H.
  - intros (k' & H). left. apply (nth_error_In _ k'). apply nth_error_firstn. exact H.
Qed.

Lemma is_accepted_iff i en : is_accepted i en = true <-> e_mark en = Some (MAccepted i).
Proof.
  unfold is_accepted. destruct (e_mark en) as [[]|]; split; intro H; try discriminate H.
  - apply Nat.eqb_eq in H. subst. reflexivity.
  - injection H as ->. apply Nat.eqb_refl.
Qed.

Lemma starts_for_iff e en :
  starts_for e en = true <-> exists j, e_mark en = Some (MStart j) /\ same_target j e = true.
Proof.
  unfold starts_for. destruct (e_mark en) as [[]|]; split; intro H; try discriminate H;
    try (destruct H as (j' & H & _); discriminate H).
  - exists j. split; [reflexivity|exact H].
  - destruct H as (j' & H & Ht). injection H as ->. exact Ht.
Qed.

Lemma accepted_somewhere h i :
  existsb (is_accepted i) h = true <-> exists k, mark_at h k (MAccepted i).
Proof.
  rewrite existsb_nth_error. split.
  - intros (k & x & Hk & Hp). exists k, x. split; [exact Hk|apply is_accepted_iff; exact Hp].
  - intros (k & x & Hk & Hm). exists k, x. split; [exact Hk|apply is_accepted_iff; exact Hm].
Qed.

Theorem no_loss_b_iff h pend : no_loss_b h pend = true <-> no_loss h pend.
Proof.
  unfold no_loss_b. rewrite (go_iff _ _ (no_loss_go h pend) (fun _ => eq_refl) (fun _ _ _ => eq_refl)). split.
  - intros H i e k (en & Hn & Hm) HM. specialize (H i en Hn).
    rewrite (count_firstn _ _ _ 0 Hn : _ = i), Hm, (proj2 (accepted_somewhere h i) (ex_intro _ k HM)) in H.
    apply orb_true_iff in H as [H|H]; [left|right; apply existsb_exists; exact H].
    apply existsb_skipn in H as (k' & x & Hk & Hx & Hp). apply starts_for_iff in Hp as (j & Hj & Ht).
    exists k', j. split; [exact Hk|]. split; [exists x; split; assumption|exact Ht].
  - intros H k en Hn. rewrite (count_firstn _ _ _ 0 Hn : _ = k).
    destruct (e_mark en) as [[e| | | | | | |]|] eqn:Em; try reflexivity.
    destruct (existsb (is_accepted k) h) eqn:Ea; [|reflexivity]. apply accepted_somewhere in Ea as (k0 & HM).
    apply orb_true_iff.
    destruct (H k e k0 (ex_intro _ en (conj Hn Em)) HM) as [(k' & j & Hk & (x & Hx & Hj) & Ht)|R];
      [left|right; apply existsb_exists; exact R].
    apply existsb_skipn. exists k', x. split; [exact Hk|]. split; [exact Hx|].
    apply starts_for_iff. exists j. split; assumption.
Qed.

Lemma arrival_iff h a e : arrival h a = Some e <-> mark_at h a (MArrive e).
Proof.
  unfold arrival, mark_at. split.
  - destruct (nth_error h a) as [en|]; [|discriminate]. destruct (e_mark en) as [[]|] eqn:Em; try discriminate.
    intro H. injection H as ->. exists en. split; [reflexivity|exact Em].
  - intros (en & -> & ->). reflexivity.
Qed.

Theorem dedup_b_iff h : dedup_b h = true <-> dedup h.
Proof.
  unfold dedup_b. rewrite (go_iff _ _ (dedup_go h) (fun _ => eq_refl) (fun _ _ _ => eq_refl)). split.
  - intros H a e k HA (en & Hn & Hm). specialize (H k en Hn).
    rewrite (count_firstn _ _ _ 0 Hn : _ = k), Hm, (proj2 (arrival_iff h a e) HA) in H.
    apply existsb_window in H as (k' & x & H1 & H2 & H3 & H4). apply existsb_exists in H4 as (j & Hj & Ht).
    exists k', x, j. repeat split; try assumption. lia.
  - intros H k en Hn. rewrite (count_firstn _ _ _ 0 Hn : _ = k).
    destruct (e_mark en) as [[| |a| | | | |]|] eqn:Em; try reflexivity.
    destruct (arrival h a) as [e|] eqn:Ea; [|reflexivity]. apply arrival_iff in Ea.
    destruct (H a e k Ea (ex_intro _ en (conj Hn Em))) as (k' & x & j & H1 & H2 & H3 & H4 & H5).
    apply existsb_window. exists k', x. repeat split; try assumption; [lia|].
    apply existsb_exists. exists j. split; assumption.
Qed.

Lemma kind_eqb_iff a b : kind_eqb a b = true <-> a = b.
Proof. split; [destruct a, b; (reflexivity || discriminate)|intros ->; destruct b; reflexivity]. Qed.

Lemma outcome_eqb_iff a b : outcome_eqb a b = true <-> a = b.
Proof. split; [destruct a, b; (reflexivity || discriminate)|intros ->; destruct b; reflexivity]. Qed.

Lemma job_same_iff a b : job_same a b = true <-> a = b.
Proof.
  destruct a as [ka ra ya ua oa], b as [kb rb yb ub ob]. unfold job_same. cbn [jk jrepo jkey juid jout].
  rewrite !andb_true_iff, !Nat.eqb_eq, kind_eqb_iff, outcome_eqb_iff. split.
  - intros ((((-> & ->) & ->) & ->) & ->). reflexivity.
  - intro H. injection H as -> -> -> -> ->. repeat split.
Qed.

Lemma jstatus_eqb_iff a b : jstatus_eqb a b = true <-> a = b.
Proof.
  destruct a as [s d], b as [s' d']. unfold jstatus_eqb. cbn [fst snd]. split.
  - destruct s, s', d, d'; intro H; try discriminate H; reflexivity.
  - intro H. injection H as -> ->. destruct s', d'; reflexivity.
Qed.

Lemma status_kind_eqb_iff a b : status_kind_eqb a b = true <-> a = b.
Proof. destruct a, b; split; intro H; try discriminate H; reflexivity. Qed.

Lemma is_finish_of_iff j en : is_finish_of j en = true <-> exists st, e_mark en = Some (MFinish j st).
Proof.
  unfold is_finish_of. destruct (e_mark en) as [[| | | | | |j' st|]|]; split; intro H; try discriminate H;
    try (destruct H as (st' & H); discriminate H).
  - apply job_same_iff in H. subst. exists st. reflexivity.
  - destruct H as (st' & H). injection H as -> _. apply job_same_iff. reflexivity.
Qed.

Lemma is_start_of_iff j en : is_start_of j en = true <-> e_mark en = Some (MStart j).
Proof.
  unfold is_start_of. destruct (e_mark en) as [[| | | | |j'| |]|]; split; intro H; try discriminate H.
  - apply job_same_iff in H. subst. reflexivity.
  - injection H as ->. apply job_same_iff. reflexivity.
Qed.

Theorem served_b_iff h wend : served_b h wend = true <-> served h wend.
Proof.
  unfold served_b.
  rewrite (go_iff (fun u _ => u) _ (fun _ : unit => served_go wend) (fun _ => eq_refl) (fun _ _ _ => eq_refl) h tt).
  split.
  - intros H k j (en & Hn & Hm). specialize (H k en Hn). rewrite Hm in H.
    apply orb_true_iff in H as [H|H]; [left|right; destruct wend; try discriminate H; reflexivity].
    apply existsb_skipn in H as (k' & x & Hk & Hx & Hp). apply is_finish_of_iff in Hp as (st & Hp).
    exists k', st. split; [exact Hk|exists x; split; assumption].
  - intros H k en Hn. destruct (e_mark en) as [[| | | | |j| |]|] eqn:Em; try reflexivity. apply orb_true_iff.
    destruct (H k j (ex_intro _ en (conj Hn Em))) as [(k' & st & Hk & x & Hx & Hp)| ->]; [left|right; reflexivity].
    apply existsb_skipn. exists k', x. split; [exact Hk|]. split; [exact Hx|].
    apply is_finish_of_iff. exists st. exact Hp.
Qed.

Lemma finish_cond_iff en j st bef :
  (match e_current en with None => true | Some _ => false end
   && match e_done en with (j', st') :: _ => job_same j' j && jstatus_eqb st' st | [] => false end
   && match e_worker en with WAtGet => true | _ => false end
   && status_kind_eqb (fst st) (spec_status (jout j))
   && existsb (is_start_of j) bef) = true
  <-> e_current en = None /\ hd_error (e_done en) = Some (j, st) /\ e_worker en = WAtGet
      /\ fst st = spec_status (jout j) /\ exists x, In x bef /\ e_mark x = Some (MStart j).
Proof.
  split.
  - intro H. apply andb_true_iff in H as (H & H5). apply andb_true_iff in H as (H & H4).
    apply andb_true_iff in H as (H & H3). apply andb_true_iff in H as (H1 & H2).
    destruct (e_current en); [discriminate H1|]. destruct (e_done en) as [|[j' st'] d]; [discriminate H2|].
    destruct (e_worker en); try discriminate H3.
    apply andb_true_iff in H2 as (A & B). apply job_same_iff in A. apply jstatus_eqb_iff in B. subst j' st'.
    apply status_kind_eqb_iff in H4. apply existsb_exists in H5 as (x & Hx & Hs). apply is_start_of_iff in Hs.
    exact (conj eq_refl (conj eq_refl (conj eq_refl (conj H4 (ex_intro _ x (conj Hx Hs)))))).
  - intros (-> & c2 & -> & c4 & x & Hx & Hs). destruct (e_done en) as [|[j' st'] d]; [discriminate c2|].
    injection c2 as -> ->.
    rewrite (proj2 (job_same_iff j j) eq_refl), (proj2 (jstatus_eqb_iff st st) eq_refl),
      (proj2 (status_kind_eqb_iff _ _) c4).
    apply existsb_exists. exists x. split; [exact Hx|apply is_start_of_iff; exact Hs].
Qed.

Theorem worker_b_iff h : worker_b h = true <-> worker_ok h.
Proof.
  unfold worker_b.
  rewrite (go_iff (fun b x => x :: b) (fun b en _ => _ && _) worker_go (fun _ => eq_refl) (fun _ _ _ => eq_refl)).
  split.
  - intros H k en Hn. specialize (H k en Hn). apply andb_true_iff in H as (Hw & H).
    split; [intro E; rewrite E in Hw; discriminate Hw|]. split; [intros j E; rewrite E in H; discriminate H|].
    intros j st E. rewrite E in H. apply finish_cond_iff in H as (c1 & c2 & c3 & c4 & x & Hx & Hs).
    apply before_In in Hx as (k' & Hk & Hx). repeat split; try assumption.
    exists k'. split; [exact Hk|exists x; split; assumption].
  - intros H k en Hn. destruct (H k en Hn) as (A & B & C). apply andb_true_iff.
    split; [destruct (e_worker en); try reflexivity; destruct A; reflexivity|].
    destruct (e_mark en) as [[| | | | | |j st|j]|] eqn:Em; try reflexivity; [|destruct (B j eq_refl)].
    destruct (C j st eq_refl) as (c1 & c2 & c3 & c4 & k' & Hk & x & Hx & Hs).
    apply finish_cond_iff. repeat split; try assumption. exists x. split; [|exact Hs].
    apply before_In. exists k'. split; assumption.
Qed.

Definition exP1a : job := mkJob KPull 0 1 10 OSilent.
Definition exP1b : job := mkJob KPull 0 1 20 OOther.
Definition exP2 : job := mkJob KPull 0 2 20 ORet.
Definition exA : job := mkJob KApi 0 0 30 OJobFailure.

Definition has_mark (p : mark -> bool) (h : list entry) : bool :=
  existsb (fun en => match e_mark en with Some m => p m | None => false end) h.

(* a duplicate is skipped while the first job waits; both requests are accepted; the job runs once *)
Example c13_ex_skip :
  let h := history [[exP1a]; [exP1b]] [1;1;1;1; 2;2;2;2; 0;0;0;0] in
  has_mark (fun m => match m with MSkip 4 => true | _ => false end) h = true
  /\ has_mark (fun m => match m with MAccepted 4 => true | _ => false end) h = true
  /\ has_mark (fun m => match m with MFinish j (STypeName, DNone) => Nat.eqb (juid j) 10 | _ => false end) h = true
  /\ no_loss_b h [] = true /\ dedup_b h = true /\ worker_b h = true /\ served_b h WAtGet = true.
Proof. vm_compute. repeat split. Qed.

(* the worker takes the waiting job while the duplicate is being compared with it: still a skip, justified by
   the job seen waiting at turn 5; its evaluation starts at turn 6, after the arrival at turn 4 *)
Example c13_ex_skip_race :
  let h := history [[exP1a]; [exP1b]] [1;1;1;1; 2;2; 0; 2;2] in
  has_mark (fun m => match m with MSkip 4 => true | _ => false end) h = true
  /\ nth_error (map e_mark h) 6 = Some (Some (MStart exP1a))
  /\ no_loss_b h [] = true /\ dedup_b h = true.
Proof. vm_compute. repeat split. Qed.

(* the worker takes a job while a different request is being compared with it: the deque was mutated during
   the scan, the request fails (5xx) and is not accepted *)
Example c13_ex_rejected :
  let h := history [[exP1a]; [exP2]] [1;1;1;1; 2;2; 0; 2] in
  has_mark (fun m => match m with MRejected 4 => true | _ => false end) h = true
  /\ has_mark (fun m => match m with MAccepted 4 => true | _ => false end) h = false.
Proof. vm_compute. repeat split. Qed.

(* the same API job object delivered twice is dropped once (identity); a JobFailure is recorded with the class
   name and its message; two different API jobs are never merged *)
Example c13_ex_api :
  let h := history [[exA; exA]] [1;1;1;1; 1;1;1;1; 0;0;0;0; 0;0;0;0] in
  has_mark (fun m => match m with MSkip _ => true | _ => false end) h = true
  /\ has_mark (fun m => match m with MFinish _ (STypeName, DStr) => true | _ => false end) h = true.
Proof. vm_compute. repeat split. Qed.
Example c13_ex_api_distinct :
  let h := history [[exA]; [mkJob KApi 0 0 31 ORet]] [1;1;1;1; 2;2;2;2] in
  has_mark (fun m => match m with MSkip _ => true | _ => false end) h = false
  /\ map juid (pending (final [[exA]; [mkJob KApi 0 0 31 ORet]] [1;1;1;1; 2;2;2;2])) = [30; 31].
Proof. vm_compute. repeat split. Qed.

(* the monitors reject doctored histories: a skipped request whose equal job never starts and does not wait *)
Example c13_ex_monitor_rejects :
  let h := [mkEntry (Some (MArrive exP1a)) [] None [] WAtGet;
            mkEntry (Some (MSkip 0)) [] (Some exP1b) [] WBusy;
            mkEntry (Some (MAccepted 0)) [] (Some exP1b) [] WBusy] in
  no_loss_b h [] = false /\ dedup_b h = false.
Proof. vm_compute. split; reflexivity. Qed.

Example c13_ex_live :
  rank (final [[exP1a]; [exP2]] [1;1;1;1;2;2;2;2;2]) 1 = 5.
Proof. vm_compute. reflexivity. Qed.
