(* C05: what the single functions of Model/QueueSel.v compute - _extract_pr_ids, one round and the whole of
   _recursive_lookup on the stack of one merge path - and what holds of _process on any input: it never runs
   out of fuel, and depends on the statuses only through "= SUCCESSFUL".  Proofs/C05Proofs.v (the only file
   that imports this one, besides Properties/C05.v) proves from these that _process meets Spec/C05Spec.v on
   well-formed queue states.

   The notions of the two files:
     suffix s l     s is a final segment of l; pull-request lists are newest first, as the queues are
     ints0 x        the queue commits of the entry x = (version, queue) of _queues
     sel I l        the commits of the queue I for the pull requests of l, in the order of l
     upd cur x      the entry x with its queue commits replaced by [cur x]; states are [map (upd cur) S0]
     popf f I       what one round of the lookup leaves of I when pull request f failed
     best okf l     the longest suffix of l that satisfies okf ([] if none)
     dropbad st I   I from its first commit with a SUCCESSFUL build on
     okS st S l     every non-hotfix version of S would move to a green commit if the pull requests l merged
     Good st S l cur  the state [cur] of a lookup or of the loop of _process: a non-hotfix queue holds its
                    commits for l, a hotfix queue a suffix of its own whose removed part is not green
     kept st b x    what is kept of x in the end: [sel (ints0 x) b], for a hotfix queue [dropbad st (ints0 x)]
   and in C05Proofs.v, for a well-formed state: hf_green, the hotfix pull requests that are kept;
   mergeable b = hf_green ++ rev b, the lists _process goes through; hf_part cur, the hotfix part of the
   list in state [cur]. *)
From Coq Require Import String List Bool Arith ZArith Lia.
Require Import BertE.Base.Lists BertE.Generated.Facts_C05 BertE.Model.QueueSel BertE.Spec.C05Spec.
Import ListNotations.
Open Scope list_scope.
Open Scope Z_scope.

(* The values of the generated literals that the proofs assume.  The proofs use them by conversion (0 for the
   sentinel, 4 and 2 for the version lengths, "SUCCESSFUL"); these stop holding when a literal changes. *)

Lemma c05_fact_green : lookup_green_literal = "SUCCESSFUL"%string. Proof. reflexivity. Qed.
Lemma c05_fact_sentinel : no_failure_sentinel = 0. Proof. reflexivity. Qed.
Lemma c05_fact_lens : extract_dev_len = 2%nat /\ extract_hf_len = 4%nat /\ process_hf_len = 4%nat
                      /\ queued_nonhf_below = 4%nat /\ queued_hf_len = 4%nat.
Proof. repeat split; reflexivity. Qed.

Lemma c05_bad_green st e : status_bad st e = negb (green st e).
Proof. reflexivity. Qed.

(* Generic facts about lists *)

Definition suffix {A} (s l : list A) : Prop := exists a, l = a ++ s.

Lemma suffix_refl {A} (l : list A) : suffix l l.
Proof. exists []. reflexivity. Qed.

Lemma suffix_trans {A} {s l m : list A} : suffix s l -> suffix l m -> suffix s m.
Proof. intros [a ->] [b ->]. exists (b ++ a). apply app_assoc. Qed.

Lemma suffix_In {A} {s l : list A} {x} : suffix s l -> In x s -> In x l.
Proof. intros [a ->] H. apply in_or_app. right; exact H. Qed.

Lemma suffix_NoDup {A} {s l : list A} : suffix s l -> NoDup l -> NoDup s.
Proof. intros [a ->] H. apply NoDup_app_iff in H. apply H. Qed.

Lemma suffix_length {A} {s l : list A} :
  suffix s l -> (length s <= length l)%nat /\ ((length l <= length s)%nat -> l = s).
Proof.
  intros [a ->]. rewrite app_length. split; [lia|]. destruct a; [reflexivity | cbn [length]; lia].
Qed.

Lemma c05_nonempty_in (A : Type) (l : list A) : l <> [] -> exists x, In x l.
Proof. destruct l as [|x t]; intro H; [contradiction | exists x; left; reflexivity]. Qed.

Lemma c05_NoDup_flat_map_eq (A B : Type) (F : A -> list B) (L : list A) x y a :
  NoDup (flat_map F L) -> In x L -> In y L -> In a (F x) -> In a (F y) -> x = y.
Proof.
  induction L as [|z L IH]; cbn [flat_map]; intros Hn Hx Hy Hax Hay; [destruct Hx|].
  apply NoDup_app_iff in Hn as (_ & HL & Hd).
  destruct Hx as [<-|Hx], Hy as [<-|Hy].
  - reflexivity.
  - destruct (Hd a Hax). apply in_flat_map. eauto.
  - destruct (Hd a Hay). apply in_flat_map. eauto.
  - apply IH; assumption.
Qed.

Lemma c05_NoDup_flat_map_each (A B : Type) (F : A -> list B) (L : list A) x :
  NoDup (flat_map F L) -> In x L -> NoDup (F x).
Proof.
  induction L as [|y L IH]; cbn [flat_map]; intros Hn Hx; [destruct Hx|].
  apply NoDup_app_iff in Hn as (Hy & HL & _). destruct Hx as [<-|Hx]; [exact Hy | exact (IH HL Hx)].
Qed.

Lemma c05_NoDup_flat_map_sub (A B : Type) (F G : A -> list B) (L : list A) :
  (forall x, In x L -> suffix (G x) (F x)) -> NoDup (flat_map F L) -> NoDup (flat_map G L).
Proof.
  induction L as [|x L IH]; cbn [flat_map]; intros H Hn; [constructor|].
  apply NoDup_app_iff in Hn as (Hx & HL & Hd).
  assert (Hsub : forall p, In p (flat_map G L) -> In p (flat_map F L)).
  { intros p Hp. apply in_flat_map in Hp as (y & Hy & Hp). apply in_flat_map. exists y.
    split; [exact Hy | exact (suffix_In (H y (or_intror Hy)) Hp)]. }
  pose proof (H x (or_introl eq_refl)) as Hs. apply NoDup_app.
  - exact (suffix_NoDup Hs Hx).
  - apply IH; [intros y Hy; apply H; right; exact Hy | exact HL].
  - intros p Hp Hp'. exact (Hd p (suffix_In Hs Hp) (Hsub p Hp')).
Qed.

Lemma c05_flat_map_length_eq (A B : Type) (F G : A -> list B) (L : list A) :
  (forall x, In x L -> (length (G x) <= length (F x))%nat /\ ((length (F x) <= length (G x))%nat -> F x = G x)) ->
  (length (flat_map G L) <= length (flat_map F L))%nat
  /\ ((length (flat_map F L) <= length (flat_map G L))%nat -> flat_map F L = flat_map G L).
Proof.
  induction L as [|x L IH]; cbn [flat_map]; intro H; [split; reflexivity|].
  destruct IH as [IH1 IH2]; [intros y Hy; apply H; right; exact Hy|].
  destruct (H x (or_introl eq_refl)) as [H1 H2]. rewrite !app_length. split; [exact (Nat.add_le_mono _ _ _ _ H1 IH1)|].
  intro Hle. rewrite H2, IH2; [reflexivity | |]; lia.
Qed.

Lemma c05_find_filter (A : Type) (P Q : A -> bool) l :
  (forall g, find P l = Some g -> Q g = true) -> find P (filter Q l) = find P l.
Proof.
  induction l as [|x l IH]; cbn [find filter]; intro H; [reflexivity|]. destruct (P x) eqn:EP.
  - rewrite (H x eq_refl). cbn [find]. rewrite EP. reflexivity.
  - destruct (Q x); [cbn [find]; rewrite EP|]; exact (IH H).
Qed.

Lemma c05_firstn_len (A : Type) j (o : list A) : firstn (length (firstn j o)) o = firstn j o.
Proof.
  rewrite firstn_length. destruct (Nat.le_ge_cases j (length o)) as [H|H].
  - rewrite Nat.min_l by exact H. reflexivity.
  - rewrite Nat.min_r by exact H. rewrite firstn_all. symmetry. apply firstn_all2. exact H.
Qed.

Lemma c05_mem_z_In x l : mem_z x l = true <-> In x l.
Proof. apply existsb_eqb_In, Z.eqb_eq. Qed.

Lemma c05_mem_z_false x l : mem_z x l = false <-> ~ In x l.
Proof. rewrite <- c05_mem_z_In, not_true_iff_false. reflexivity. Qed.

Lemma c05_version_eqb_eq a : forall b, version_eqb a b = true <-> a = b.
Proof.
  induction a as [|x a IH]; intros [|y b]; cbn [version_eqb];
    try (split; intro H; (reflexivity || discriminate H)).
  rewrite andb_true_iff, IH. split.
  - intros [H <-]. f_equal. destruct x as [x|], y as [y|]; try discriminate H; [apply Z.eqb_eq in H; subst y|]; reflexivity.
  - intro H. injection H as <- <-. split; [|reflexivity]. destruct x; [apply Z.eqb_refl | reflexivity].
Qed.

Lemma c05_in_path v p : existsb (version_eqb v) p = true <-> In v p.
Proof. apply existsb_eqb_In, c05_version_eqb_eq. Qed.

Definition ints0 (x : version * queue) : list qint := q_ints (snd x).

Lemma c05_NoDup_ids_app A B e : NoDup (map q_pr (A ++ B)) -> In e A -> ~ In (q_pr e) (map q_pr B).
Proof. rewrite map_app, NoDup_app_iff. intros (_ & _ & D) He. apply D, in_map, He. Qed.

Lemma c05_push_front_new other ints : forall acc,
  NoDup (map q_pr ints) -> (forall p, In p (map q_pr ints) -> ~ In p (other ++ acc)) ->
  push_front_new other ints acc = rev (map q_pr ints) ++ acc.
Proof.
  unfold push_front_new. induction ints as [|e t IH]; cbn [fold_left map rev]; intros acc Hn Hd; [reflexivity|].
  apply NoDup_cons_iff in Hn as [Hne Hnt].
  rewrite (proj2 (c05_mem_z_false _ _) (Hd _ (or_introl eq_refl))), IH, <- app_assoc; [reflexivity | exact Hnt |].
  intros p Hp. specialize (Hd p (or_intror Hp)). rewrite in_app_iff in *. intros [H|[<-|H]]; auto.
Qed.

Definition hf_fold (r : queues) (acc : list Z) : list Z :=
  fold_left (fun acc (vq : version * queue) =>
               if (length (fst vq) =? 4)%nat then push_front_new [] (q_ints (snd vq)) acc else acc) r acc.

(* the hotfix part of the lists of pull requests: every hotfix queue oldest first, in queue order *)
Definition hf_list (qs : queues) : list Z := flat_map (fun vq => rev (pr_ids (snd vq))) (hotfix_queues qs).

Lemma c05_hf_list_In qs p : In p (hf_list qs) <-> In p (hotfix_prs qs).
Proof.
  unfold hf_list, hotfix_prs. rewrite !in_flat_map.
  split; intros (x & Hx & Hp); exists x; split; try exact Hx; apply in_rev; [|rewrite rev_involutive]; exact Hp.
Qed.

Lemma c05_hf_fold qs : NoDup (hotfix_prs qs) -> hf_fold (rev qs) [] = hf_list qs.
Proof.
  induction qs as [|x t IH]; intro Hn; [reflexivity|].
  cbn [rev]. unfold hf_fold. rewrite fold_left_app. cbn [fold_left]. fold (hf_fold (rev t) []).
  unfold hf_list, hotfix_prs, hotfix_queues in *. cbn [filter] in *. unfold is_hotfix in *.
  destruct (length (fst x) =? 4)%nat; [|exact (IH Hn)].
  cbn [flat_map] in *. apply NoDup_app_iff in Hn as (Hx & Ht & Hd).
  rewrite (IH Ht). apply c05_push_front_new; [exact Hx|].
  intros p Hp Hin. exact (Hd p Hp (proj1 (c05_hf_list_In t p) Hin)).
Qed.

Lemma c05_extract qs d :
  NoDup (hotfix_prs qs) -> NoDup d -> (forall p, In p d -> ~ In p (hotfix_prs qs)) ->
  match last_dev qs with Some (_, qu) => pr_ids qu = d | None => d = [] end ->
  extract_pr_ids qs = hf_list qs ++ rev d.
Proof.
  intros Hn Hd Hdis Hl. unfold extract_pr_ids.
  change (fold_left _ (rev qs) []) with (hf_fold (rev qs) []).
  change (find _ (rev qs)) with (last_dev qs).
  rewrite (c05_hf_fold qs Hn). f_equal.
  destruct (last_dev qs) as [[g qu]|]; subst d; [|reflexivity].
  rewrite c05_push_front_new, app_nil_r; [reflexivity | exact Hd |].
  intros p Hp. rewrite app_nil_r, c05_hf_list_In. exact (Hdis p Hp).
Qed.

(* sel I l : the queue commits of I whose pull request is in l, in the order of l.  A queue that is
   in order of entry is [sel I ro] for the order of entry ro; what the lookup and _remove_unmergeable
   leave of it is [sel I l] for a suffix l of ro. *)

Definition pick (I : list qint) (p : Z) : list qint :=
  match find (fun e => q_pr e =? p) I with Some e => [e] | None => [] end.
Definition sel (I : list qint) (l : list Z) : list qint := flat_map (pick I) l.

Lemma c05_pick_spec I p :
  (exists e, pick I p = [e] /\ q_pr e = p /\ In e I) \/ (pick I p = [] /\ ~ In p (map q_pr I)).
Proof.
  unfold pick. destruct (find (fun e => q_pr e =? p) I) as [e|] eqn:F.
  - left. exists e. apply find_some in F as [Hin He]. apply Z.eqb_eq in He. auto.
  - right. split; [reflexivity|]. intro H. apply in_map_iff in H as (e & He & Hin).
    apply (find_none _ _ F) in Hin. cbn in Hin. rewrite He, Z.eqb_refl in Hin. discriminate Hin.
Qed.

Lemma c05_pick_none I p : ~ In p (map q_pr I) -> pick I p = [].
Proof. intro H. destruct (c05_pick_spec I p) as [(e & _ & <- & He)|[E _]]; [destruct (H (in_map _ _ _ He)) | exact E]. Qed.

Lemma c05_sel_app I a b : sel I (a ++ b) = sel I a ++ sel I b.
Proof. apply flat_map_app. Qed.

Lemma c05_sel_cons I p l : sel I (p :: l) = pick I p ++ sel I l.
Proof. reflexivity. Qed.

Lemma c05_sel_In I l e : In e (sel I l) -> In (q_pr e) l /\ In e I.
Proof.
  unfold sel. rewrite in_flat_map. intros (p & Hp & He).
  destruct (c05_pick_spec I p) as [(e' & E & <- & Hin)|[E _]]; rewrite E in He;
    [destruct He as [<-|[]]; auto | destruct He].
Qed.

Lemma c05_sel_hd I l e r :
  sel I l = e :: r -> exists pre t, l = pre ++ q_pr e :: t /\ sel I pre = [] /\ pick I (q_pr e) = [e].
Proof.
  induction l as [|p l IH]; [discriminate|]. rewrite c05_sel_cons.
  destruct (c05_pick_spec I p) as [(e' & E & <- & _)|[E _]]; rewrite E; cbn [app]; intro H.
  - injection H as -> _. exists [], l. auto.
  - destruct (IH H) as (pre & t & -> & Hn & Hp). exists (p :: pre), t. rewrite c05_sel_cons, E, Hn. auto.
Qed.

Lemma c05_sel_nil_iff I l : sel I l = [] <-> forall p, In p l -> ~ In p (map q_pr I).
Proof.
  unfold sel. rewrite flat_map_nil_iff. split; intros H p Hp; specialize (H p Hp).
  - destruct (c05_pick_spec I p) as [(e & E & _)|[_ Hn]]; [congruence | exact Hn].
  - exact (c05_pick_none I p H).
Qed.

Lemma c05_sel_cons_skip e t l : (forall p, In p l -> p <> q_pr e) -> sel (e :: t) l = sel t l.
Proof.
  intro H. apply flat_map_ext_in. intros p Hp. unfold pick. cbn [find].
  destruct (Z.eqb_spec (q_pr e) p) as [E|_]; [destruct (H p Hp (eq_sym E)) | reflexivity].
Qed.

Lemma c05_sel_self I : NoDup (map q_pr I) -> sel I (map q_pr I) = I.
Proof.
  induction I as [|e t IH]; cbn [map]; intro Hn; [reflexivity|]. apply NoDup_cons_iff in Hn as [Hne Hnt].
  rewrite c05_sel_cons, c05_sel_cons_skip, (IH Hnt) by (intros p Hp ->; exact (Hne Hp)).
  unfold pick. cbn [find]. rewrite Z.eqb_refl. reflexivity.
Qed.

Lemma c05_sel_filter I l : sel I (filter (fun p => mem_z p (map q_pr I)) l) = sel I l.
Proof.
  induction l as [|p l IH]; [reflexivity|]. cbn [filter]. destruct (mem_z p (map q_pr I)) eqn:M;
    rewrite !c05_sel_cons, IH; [reflexivity|]. apply c05_mem_z_false in M. rewrite (c05_pick_none I p M). reflexivity.
Qed.

(* the hypothesis is wf_sorted of Spec/C05Spec.v ("horizontal" well-formedness) *)
Lemma c05_sorted_sel I ro :
  NoDup ro -> map q_pr I = filter (fun p => mem_z p (map q_pr I)) ro -> I = sel I ro.
Proof.
  intros Hn H. rewrite <- (c05_sel_filter I ro), <- H. symmetry. apply c05_sel_self.
  rewrite H. apply NoDup_filter. exact Hn.
Qed.

Lemma c05_sel_ids I l : incl l (map q_pr I) -> map q_pr (sel I l) = l.
Proof.
  induction l as [|p l IH]; intro Hi; [reflexivity|].
  destruct (c05_pick_spec I p) as [(e & E & He & _)|[_ Hn]]; [|destruct (Hn (Hi p (or_introl eq_refl)))].
  rewrite c05_sel_cons, E. cbn [app map]. rewrite He, IH; [reflexivity|]. intros q Hq. apply Hi. right; exact Hq.
Qed.

Lemma c05_newest_selected_sel I a l :
  NoDup (a ++ l) -> I = sel I (a ++ l) -> newest_selected l I = hd_error (sel I l).
Proof.
  intros Hn HI. unfold newest_selected. rewrite HI at 1. rewrite c05_sel_app.
  apply NoDup_app_iff in Hn as (_ & _ & Hd). rewrite find_app_skip.
  - destruct (sel I l) as [|e r] eqn:E; [reflexivity|]. cbn [find hd_error].
    rewrite (proj2 (c05_mem_z_In (q_pr e) l)); [reflexivity|]. apply (c05_sel_In I l e). rewrite E. left; reflexivity.
  - intros e He. apply c05_sel_In in He as [He _]. apply c05_mem_z_false. apply Hd. exact He.
Qed.

(* One round of _recursive_lookup.  Queues are written [map (upd cur) S]: the queues of S, each with
   the queue commits [cur] gives it; a round applies [popf f] to every one of them. *)

Definition popf (f : Z) (ints : list qint) : list qint :=
  if forallb (fun e => negb (q_pr e =? f)) ints then ints else drop_through f ints.

Definition upd (cur : version * queue -> list qint) (x : version * queue) : version * queue :=
  (fst x, set_ints (snd x) (cur x)).

Lemma c05_upd_id qs : map (upd ints0) qs = qs.
Proof. rewrite <- (map_id qs) at 2. apply map_ext. intros [v [m i]]. reflexivity. Qed.

Lemma c05_pop_failed_map f qs : pop_failed f qs = map (upd (fun x => popf f (ints0 x))) qs.
Proof.
  apply map_ext. intros [v [m i]]. unfold popf, upd, ints0. cbn [fst snd q_ints].
  destruct (forallb (fun e => negb (q_pr e =? f)) i); reflexivity.
Qed.

Lemma c05_pop_upd f cur S : pop_failed f (map (upd cur) S) = map (upd (fun x => popf f (cur x))) S.
Proof. rewrite c05_pop_failed_map, map_map. reflexivity. Qed.

Lemma c05_remove_upd m cur S0 :
  remove_unmergeable m (map (upd cur) S0) = map (upd (fun x => drop_unlisted m (cur x))) S0.
Proof. unfold remove_unmergeable. rewrite map_map. reflexivity. Qed.

Lemma c05_path_stack_upd p cur qs : path_stack p (map (upd cur) qs) = map (upd cur) (path_stack p qs).
Proof. exact (filter_map_swap _ _ _). Qed.

Lemma c05_hotfix_queues_upd c S : hotfix_queues (map (upd c) S) = map (upd c) (hotfix_queues S).
Proof. exact (filter_map_swap _ _ _). Qed.

Lemma c05_hotfix_prs_upd c S : hotfix_prs (map (upd c) S) = flat_map (fun x => map q_pr (c x)) (hotfix_queues S).
Proof. unfold hotfix_prs. rewrite c05_hotfix_queues_upd, flat_map_map. reflexivity. Qed.

Lemma c05_hf_list_upd c S : hf_list (map (upd c) S) = flat_map (fun x => rev (map q_pr (c x))) (hotfix_queues S).
Proof. unfold hf_list. rewrite c05_hotfix_queues_upd, flat_map_map. reflexivity. Qed.

Lemma c05_last_dev_upd c S : last_dev (map (upd c) S) = option_map (upd c) (last_dev S).
Proof. unfold last_dev. rewrite <- map_rev, find_map. reflexivity. Qed.

Lemma c05_popf_notin f I : ~ In f (map q_pr I) -> popf f I = I.
Proof.
  intro H. unfold popf. replace (forallb _ I) with true; [reflexivity|]. symmetry. apply forallb_forall.
  intros e He. apply negb_true_iff, Z.eqb_neq. intros <-. exact (H (in_map _ _ _ He)).
Qed.

Lemma c05_popf_split A e B :
  (forall e', In e' A -> q_pr e' <> q_pr e) -> popf (q_pr e) (A ++ e :: B) = B.
Proof.
  intro H. unfold popf. rewrite (forallb_false _ _ e) by (try apply in_elt; rewrite Z.eqb_refl; reflexivity).
  induction A as [|a A IH]; cbn [app drop_through]; [rewrite Z.eqb_refl; reflexivity|].
  rewrite (proj2 (Z.eqb_neq _ _) (H a (or_introl eq_refl))). apply IH. intros e' He'. apply H. right; exact He'.
Qed.

Lemma c05_popf_head e r : popf (q_pr e) (e :: r) = r.
Proof. apply (c05_popf_split []). intros ? []. Qed.

Lemma c05_popf_sel I pre f t :
  ~ In f pre -> (~ In f (map q_pr I) -> sel I pre = []) -> popf f (sel I (pre ++ f :: t)) = sel I t.
Proof.
  intros Hpre Hnil. rewrite c05_sel_app, c05_sel_cons. destruct (c05_pick_spec I f) as [(e & -> & <- & _)|[-> Hn]].
  - apply c05_popf_split. intros e' He' E. apply c05_sel_In in He' as [He' _]. rewrite E in He'. exact (Hpre He').
  - rewrite (Hnil Hn). apply c05_popf_notin. intro H. apply in_map_iff in H as (e & <- & He).
    apply c05_sel_In in He as [_ He]. exact (Hn (in_map _ _ _ He)).
Qed.

Lemma c05_first_failed_upd st cur S :
  (exists x e r, In x S /\ cur x = e :: r /\ status_bad st e = true /\ first_failed st (map (upd cur) S) = q_pr e)
  \/ (first_failed st (map (upd cur) S) = 0
      /\ forall x e r, In x S -> cur x = e :: r -> status_bad st e = false).
Proof.
  induction S as [|x S IH]; [right; split; [reflexivity | intros ? ? ? []]|].
  cbn [map first_failed upd snd set_ints q_ints].
  destruct (cur x) as [|e r] eqn:Ec; [|destruct (status_bad st e) eqn:Eb].
  - (* no tip: the answer is that of the rest *)
    destruct IH as [(y & e' & r' & Hy & H)|[Hz Hall]].
    + left. exists y, e', r'. split; [right; exact Hy | exact H].
    + right. split; [exact Hz|]. intros y e' r' [<-|Hy] Hc; [|exact (Hall y e' r' Hy Hc)].
      rewrite Ec in Hc. discriminate Hc.
  - left. exists x, e, r. auto using in_eq.
  - (* a green tip: likewise *)
    destruct IH as [(y & e' & r' & Hy & H)|[Hz Hall]].
    + left. exists y, e', r'. split; [right; exact Hy | exact H].
    + right. split; [exact Hz|]. intros y e' r' [<-|Hy] Hc; [|exact (Hall y e' r' Hy Hc)].
      rewrite Ec in Hc. injection Hc as <- _. exact Eb.
Qed.

Lemma c05_entries_cons x t : entries (x :: t) = (length (ints0 x) + entries t)%nat.
Proof. reflexivity. Qed.

Lemma c05_entries_app a b : entries (a ++ b) = (entries a + entries b)%nat.
Proof. induction a as [|x a IH]; [reflexivity|]. cbn [app]. rewrite !c05_entries_cons, IH. lia. Qed.

Lemma c05_entries_upd_le c S :
  (forall x, In x S -> (length (c x) <= length (ints0 x))%nat) -> (entries (map (upd c) S) <= entries S)%nat.
Proof.
  induction S as [|x S IH]; intro H; [reflexivity|]. cbn [map]. rewrite !c05_entries_cons.
  pose proof (H x (or_introl eq_refl)). pose proof (IH (fun y Hy => H y (or_intror Hy))).
  unfold ints0, upd in *. cbn [snd set_ints q_ints]. lia.
Qed.

Lemma c05_entries_filter P qs : (entries (filter P qs) <= entries qs)%nat.
Proof.
  induction qs as [|x t IH]; [reflexivity|]. cbn [filter]. destruct (P x); rewrite !c05_entries_cons; lia.
Qed.

Lemma c05_drop_through_le f ints : (length (drop_through f ints) <= length ints)%nat.
Proof. induction ints as [|e t IH]; [reflexivity|]. cbn [drop_through length]. destruct (q_pr e =? f); lia. Qed.

Lemma c05_popf_le f ints : (length (popf f ints) <= length ints)%nat.
Proof. unfold popf. destruct (forallb _ ints); [reflexivity | apply c05_drop_through_le]. Qed.

Lemma c05_drop_unlisted_le m I : (length (drop_unlisted m I) <= length I)%nat.
Proof.
  induction I as [|e t IH]; [reflexivity|]. cbn [drop_unlisted]. destruct (mem_z (q_pr e) m); cbn [length]; lia.
Qed.

Lemma c05_entries_remove m qs : (entries (remove_unmergeable m qs) <= entries qs)%nat.
Proof. apply (c05_entries_upd_le (fun x => drop_unlisted m (ints0 x))). intros x _. apply c05_drop_unlisted_le. Qed.

Lemma c05_entries_pop_le f qs : (entries (pop_failed f qs) <= entries qs)%nat.
Proof. rewrite c05_pop_failed_map. apply c05_entries_upd_le. intros x _. apply c05_popf_le. Qed.

Lemma c05_entries_pop_lt st qs :
  first_failed st qs <> 0 -> (entries (pop_failed (first_failed st qs) qs) < entries qs)%nat.
Proof.
  induction qs as [|[v qu] t IH]; cbn [first_failed]; intro Hf; [destruct (Hf eq_refl)|].
  assert (E : forall f, entries (pop_failed f ((v, qu) :: t))
                        = (length (popf f (q_ints qu)) + entries (pop_failed f t))%nat)
    by (intro f; rewrite !c05_pop_failed_map; reflexivity).
  rewrite E, c05_entries_cons. unfold ints0. cbn [snd].
  destruct (q_ints qu) as [|e r]; [|destruct (status_bad st e)].
  - specialize (IH Hf). cbn. lia.
  - rewrite c05_popf_head. pose proof (c05_entries_pop_le (q_pr e) t). cbn [length]. lia.
  - specialize (IH Hf). pose proof (c05_popf_le (first_failed st t) (e :: r)). lia.
Qed.

Lemma c05_lookup_inv st (P : queues -> Prop) :
  (forall qs, P qs -> first_failed st qs <> 0 -> P (pop_failed (first_failed st qs) qs)) ->
  forall fuel qs, P qs -> (entries qs <= fuel)%nat ->
  exists qs', recursive_lookup fuel st qs = Ok qs' /\ P qs' /\ first_failed st qs' = 0.
Proof.
  intro Hstep. induction fuel as [|fuel IH]; intros qs HP Hle; cbn [recursive_lookup].
  - destruct (Z.eqb_spec (first_failed st qs) no_failure_sentinel) as [E|E]; [exists qs; exact (conj eq_refl (conj HP E))|].
    pose proof (c05_entries_pop_lt st qs E). lia.
  - destruct (Z.eqb_spec (first_failed st qs) no_failure_sentinel) as [E|E]; [exists qs; exact (conj eq_refl (conj HP E))|].
    pose proof (c05_entries_pop_lt st qs E). apply IH; [exact (Hstep qs HP E) | lia].
Qed.

Lemma c05_lookup_total st fuel qs :
  (entries qs <= fuel)%nat -> exists qs', recursive_lookup fuel st qs = Ok qs'.
Proof.
  intro H. destruct (c05_lookup_inv st (fun _ => True) (fun _ _ _ => I) fuel qs I H) as (qs' & E & _).
  exists qs'. exact E.
Qed.

(* _process never runs out of fuel (any input, well-formed or not) *)

Lemma c05_path_prs_total st fuel qs p :
  (entries qs <= fuel)%nat -> exists l, path_prs fuel st qs p = Ok l.
Proof.
  intro H. unfold path_prs. destruct (c05_lookup_total st fuel (path_stack p qs)) as [s ->].
  - pose proof (c05_entries_filter (fun vq => on_path p (fst vq)) qs). unfold path_stack. lia.
  - eexists; reflexivity.
Qed.

Lemma c05_one_pass_char fuel st qs (Lf : list version -> list Z) : forall paths m,
  (forall p, In p paths -> path_prs fuel st qs p = Ok (Lf p)) ->
  exists m', one_pass fuel st qs paths m = Ok m'
             /\ (m' = m \/ exists p, In p paths /\ m' = Lf p)
             /\ (length m' <= length m)%nat
             /\ forall p, In p paths -> (length m' <= length (Lf p))%nat.
Proof.
  induction paths as [|p t IH]; intros m H; cbn [one_pass].
  - exists m. repeat split; [left; reflexivity | reflexivity | intros p []].
  - rewrite (H p (or_introl eq_refl)).
    destruct (IH (if (length (Lf p) <? length m)%nat then Lf p else m) (fun q Hq => H q (or_intror Hq)))
      as (m' & E & Hc & Hle & Hall).
    exists m'. split; [exact E|]. destruct (Nat.ltb_spec (length (Lf p)) (length m)); repeat split; try lia.
    + right. destruct Hc as [->|(q & Hq & ->)]; [exists p | exists q]; auto using in_eq, in_cons.
    + intros q [<-|Hq]; [exact Hle | exact (Hall q Hq)].
    + destruct Hc as [->|(q & Hq & ->)]; [left; reflexivity | right; exists q; auto using in_cons].
    + intros q [<-|Hq]; [lia | exact (Hall q Hq)].
Qed.

Lemma c05_one_pass_total st fuel qs :
  (entries qs <= fuel)%nat ->
  forall paths m, exists m', one_pass fuel st qs paths m = Ok m' /\ (length m' <= length m)%nat.
Proof.
  intros H paths m.
  destruct (c05_one_pass_char fuel st qs (fun p => match path_prs fuel st qs p with Ok l => l | Err _ => [] end)
              paths m) as (m' & E & _ & Hle & _).
  - intros p _. destruct (c05_path_prs_total st fuel qs p H) as [l ->]. reflexivity.
  - exists m'. split; assumption.
Qed.

Lemma c05_process_loop_total st fuel paths : forall n qs m,
  (length m <= n)%nat -> (entries qs <= fuel)%nat -> exists r, process_loop n fuel st paths qs m = Ok r.
Proof.
  induction n as [|n IH]; intros qs m Hm Hq; cbn [process_loop];
    destruct (c05_one_pass_total st fuel qs Hq paths m) as [m' [-> Hle]];
    destruct (Nat.eqb_spec (length m') (length m)) as [Heq|Hne]; try (exists m'; reflexivity).
  - exfalso. lia.
  - apply IH; [lia|]. pose proof (c05_entries_remove m' qs). lia.
Qed.

(* Status abstraction: only "= SUCCESSFUL" matters to _process, only "= FAILED" to failed_prs *)

Section C05_Ext.
  Variables st1 st2 : Z -> string.
  Hypothesis Hst : forall c, String.eqb (st1 c) lookup_green_literal = String.eqb (st2 c) lookup_green_literal.

  Lemma c05_first_failed_ext qs : first_failed st1 qs = first_failed st2 qs.
  Proof.
    induction qs as [|[v qu] t IH]; [reflexivity|]. cbn [first_failed].
    destruct (q_ints qu) as [|e r]; [exact IH|]. unfold status_bad. rewrite Hst, IH. reflexivity.
  Qed.

  Lemma c05_lookup_ext : forall fuel qs, recursive_lookup fuel st1 qs = recursive_lookup fuel st2 qs.
  Proof.
    induction fuel as [|fuel IH]; intro qs; cbn [recursive_lookup]; rewrite c05_first_failed_ext.
    - reflexivity.
    - destruct (first_failed st2 qs =? no_failure_sentinel); [reflexivity | apply IH].
  Qed.

  Lemma c05_one_pass_ext fuel qs : forall paths m, one_pass fuel st1 qs paths m = one_pass fuel st2 qs paths m.
  Proof.
    induction paths as [|p t IH]; intro m; [reflexivity|]. cbn [one_pass]. unfold path_prs.
    rewrite c05_lookup_ext. destruct (recursive_lookup fuel st2 (path_stack p qs)); [apply IH | reflexivity].
  Qed.

  Lemma c05_process_loop_ext fuel paths : forall n qs m,
    process_loop n fuel st1 paths qs m = process_loop n fuel st2 paths qs m.
  Proof.
    induction n as [|n IH]; intros qs m; cbn [process_loop]; rewrite c05_one_pass_ext;
      destruct (one_pass fuel st2 qs paths m) as [m'|]; try reflexivity.
    destruct (length m' =? length m)%nat; [reflexivity | apply IH].
  Qed.

  Lemma c05_process_ext paths force qs : process st1 paths force qs = process st2 paths force qs.
  Proof. unfold process, process_fuel. destruct force; [reflexivity|]. rewrite c05_process_loop_ext. reflexivity. Qed.
End C05_Ext.

Lemma c05_failed_prs_ext st1 st2 qs :
  (forall c, String.eqb (st1 c) failed_literal = String.eqb (st2 c) failed_literal) ->
  failed_prs st1 qs = failed_prs st2 qs.
Proof.
  intro H. unfold failed_prs. apply flat_map_ext. intros [v qu]. cbn [snd].
  destruct (q_ints qu) as [|e r]; [reflexivity|]. rewrite H. reflexivity.
Qed.

Lemma c05_hd_drop_unlisted m I : hd_error (drop_unlisted m I) = newest_selected m I.
Proof.
  unfold newest_selected. induction I as [|e t IH]; [reflexivity|]. cbn [drop_unlisted find].
  destruct (mem_z (q_pr e) m); [reflexivity | exact IH].
Qed.

Lemma c05_moves_remove m qs :
  (forall v qu, In (v, qu) qs -> q_master qu = true) ->
  moves (remove_unmergeable m qs)
  = Ok (map (fun vq : version * queue => (fst vq, newest_selected m (q_ints (snd vq)))) qs).
Proof.
  unfold remove_unmergeable. induction qs as [|[v qu] t IH]; intro H; [reflexivity|].
  cbn [map moves fst snd set_ints q_master q_ints]. rewrite (H v qu (or_introl eq_refl)).
  rewrite IH by (intros v' qu' Hin; apply (H v' qu'); right; exact Hin).
  rewrite c05_hd_drop_unlisted. reflexivity.
Qed.

Lemma c05_drop_unlisted_app m A B :
  (forall e, In e A -> ~ In (q_pr e) m) -> (forall e, In e B -> In (q_pr e) m) ->
  drop_unlisted m (A ++ B) = B.
Proof.
  intros HA HB. induction A as [|a A IH]; cbn [app].
  - destruct B as [|e r]; [reflexivity|]. cbn [drop_unlisted].
    rewrite (proj2 (c05_mem_z_In _ _) (HB e (or_introl eq_refl))). reflexivity.
  - cbn [drop_unlisted]. rewrite (proj2 (c05_mem_z_false _ _) (HA a (or_introl eq_refl))).
    apply IH. intros e He. apply HA. right; exact He.
Qed.

(* What _recursive_lookup computes on the stack of one merge path.
   
   The stack is described relative to the original queues S0 of the path: every non-hotfix version
   holds exactly its queue commits for the pull requests of a suffix l of the (newest first) order of
   entry, every hotfix queue holds a suffix of its own commits whose removed part is not green.
   The lookup ends with the longest suffix of l on which every version of the path has a green tip
   ([best okS l]) and with every hotfix queue cut down to its first green commit ([dropbad]). *)

Fixpoint best (okf : list Z -> bool) (l : list Z) : list Z :=
  match l with
  | [] => []
  | _ :: t => if okf l then l else best okf t
  end.

Lemma c05_best_fix okf l : okf l = true -> best okf l = l.
Proof. destruct l as [|x t]; [reflexivity|]. intro H. cbn [best]. rewrite H. reflexivity. Qed.

Lemma c05_best_skip okf b : forall a,
  (forall a1 a2, a = a1 ++ a2 -> a2 <> [] -> okf (a2 ++ b) = false) -> best okf (a ++ b) = best okf b.
Proof.
  induction a as [|x a IH]; intro H; [reflexivity|]. cbn [app best].
  change (x :: a ++ b) with ((x :: a) ++ b). rewrite (H [] (x :: a) eq_refl) by discriminate.
  apply IH. intros a1 a2 E Hne. apply (H (x :: a1) a2); [rewrite E; reflexivity | exact Hne].
Qed.

Lemma c05_best_ext f g : forall l, (forall l', suffix l' l -> f l' = g l') -> best f l = best g l.
Proof.
  induction l as [|x t IH]; intro H; [reflexivity|]. cbn [best]. rewrite (H _ (suffix_refl _)).
  rewrite IH; [reflexivity|]. intros l' Hl'. apply H. exact (suffix_trans Hl' (ex_intro _ [x] eq_refl)).
Qed.

Lemma c05_best_spec okf l :
  exists a, l = a ++ best okf l
            /\ (forall a1 a2, a = a1 ++ a2 -> a2 <> [] -> okf (a2 ++ best okf l) = false)
            /\ (best okf l = [] \/ okf (best okf l) = true).
Proof.
  induction l as [|x t IH]; cbn [best]; [|destruct (okf (x :: t)) eqn:E].
  1, 2: exists []; repeat split; auto; intros a1 a2 E' Hne; destruct a1, a2; try discriminate E'; contradiction.
  destruct IH as (a & Ha & Hbad & Hok). exists (x :: a). repeat split; [cbn [app]; congruence | | exact Hok].
  intros [|y a1] a2 E' Hne; cbn [app] in E'.
  - subst a2. cbn [app]. rewrite <- Ha. exact E.
  - injection E' as _ E'. exact (Hbad a1 a2 E' Hne).
Qed.

Fixpoint dropbad (st : Z -> string) (I : list qint) : list qint :=
  match I with
  | [] => []
  | e :: t => if status_bad st e then dropbad st t else I
  end.

Lemma c05_dropbad_app st pre c : forallb (status_bad st) pre = true -> dropbad st (pre ++ c) = dropbad st c.
Proof.
  induction pre as [|e p IH]; cbn [forallb app dropbad]; intro H; [reflexivity|].
  apply andb_true_iff in H as [-> Hp]. exact (IH Hp).
Qed.

Lemma c05_dropbad_suffix st I : exists pre, I = pre ++ dropbad st I /\ forallb (status_bad st) pre = true.
Proof.
  induction I as [|e t IH]; [exists []; split; reflexivity|]. cbn [dropbad].
  destruct (status_bad st e) eqn:E; [|exists []; split; reflexivity].
  destruct IH as (pre & Hp & Hb). exists (e :: pre). cbn [app forallb]. rewrite <- Hp, E, Hb. split; reflexivity.
Qed.

Lemma c05_dropbad_hd st I e : hd_error (dropbad st I) = Some e -> green st e = true.
Proof.
  induction I as [|e' t IH]; [discriminate|]. cbn [dropbad]. rewrite c05_bad_green.
  destruct (green st e') eqn:E; [|exact IH]. intro H. injection H as <-. exact E.
Qed.

Section C05_Lookup.
  Variable st : Z -> string.
  Variable order : list Z.
  Variable S0 : queues.
  Hypothesis Hnd : NoDup order.
  Hypothesis Hpos : forall p, In p order -> 0 < p.
  Hypothesis Hhf_nodup : NoDup (hotfix_prs S0).
  Hypothesis Hhf_pos : forall p, In p (hotfix_prs S0) -> 0 < p.
  Hypothesis Hhf_dis : forall p, In p (hotfix_prs S0) -> ~ In p order.
  Hypothesis Hchain : forall x y, In x S0 -> In y S0 ->
      is_hotfix (fst x) = false -> is_hotfix (fst y) = false ->
      incl (map q_pr (ints0 x)) (map q_pr (ints0 y)) \/ incl (map q_pr (ints0 y)) (map q_pr (ints0 x)).

  Definition okS (l : list Z) : bool :=
    forallb (fun x : version * queue =>
               is_hotfix (fst x) || match sel (ints0 x) l with [] => true | e :: _ => green st e end) S0.

  Definition Good (l : list Z) (cur : version * queue -> list qint) : Prop :=
    forall x, In x S0 ->
      if is_hotfix (fst x) then exists pre, ints0 x = pre ++ cur x /\ forallb (status_bad st) pre = true
      else cur x = sel (ints0 x) l.

  Definition kept (b : list Z) (x : version * queue) : list qint :=
    if is_hotfix (fst x) then dropbad st (ints0 x) else sel (ints0 x) b.

  Lemma c05_hf_in x p :
    In x S0 -> is_hotfix (fst x) = true -> In p (map q_pr (ints0 x)) -> In p (hotfix_prs S0).
  Proof. intros Hx Hh Hp. apply in_flat_map. exists x. split; [apply filter_In; split; assumption | exact Hp]. Qed.

  Lemma c05_hf_unique x y p :
    In x S0 -> In y S0 -> is_hotfix (fst x) = true -> is_hotfix (fst y) = true ->
    In p (map q_pr (ints0 x)) -> In p (map q_pr (ints0 y)) -> x = y.
  Proof.
    intros Hx Hy Ex Ey.
    apply (c05_NoDup_flat_map_eq _ _ (fun vq => pr_ids (snd vq)) (hotfix_queues S0) x y p Hhf_nodup);
      apply filter_In; split; assumption.
  Qed.

  (* where the pull requests of a state lie: those of hotfix queues outside [order], the others in it *)
  Lemma c05_good_in l cur x p :
    suffix l (rev order) -> Good l cur -> In x S0 -> In p (map q_pr (cur x)) ->
    In p (map q_pr (ints0 x)) /\ 0 < p /\ is_hotfix (fst x) = negb (mem_z p order).
  Proof.
    intros Hl Hg Hx Hp. specialize (Hg x Hx). destruct (is_hotfix (fst x)) eqn:Ex.
    - destruct Hg as (pre & E & _).
      assert (H : In p (map q_pr (ints0 x))) by (rewrite E, map_app, in_app_iff; right; exact Hp).
      pose proof (c05_hf_in x p Hx Ex H) as Hh. split; [exact H|]. split; [exact (Hhf_pos p Hh)|].
      symmetry. apply negb_true_iff, c05_mem_z_false, Hhf_dis, Hh.
    - rewrite Hg in Hp. apply in_map_iff in Hp as (e & <- & He). apply c05_sel_In in He as [H1 H2].
      apply (suffix_In Hl), in_rev in H1. split; [exact (in_map _ _ _ H2)|]. split; [exact (Hpos _ H1)|].
      symmetry. apply negb_false_iff, c05_mem_z_In, H1.
  Qed.

  Lemma c05_lookup_round l cur :
    suffix l (rev order) -> Good l cur -> first_failed st (map (upd cur) S0) <> 0 ->
    exists l', suffix l' l /\ Good l' (fun x => popf (first_failed st (map (upd cur) S0)) (cur x))
               /\ best okS l' = best okS l.
  Proof.
    intros Hl Hg Hnz.
    destruct (c05_first_failed_upd st cur S0) as [(u & e & r & Hu & Hc & Hbad & ->)|[Hz _]]; [clear Hnz | contradiction].
    assert (He : In (q_pr e) (map q_pr (cur u))) by (rewrite Hc; left; reflexivity).
    destruct (c05_good_in l cur u _ Hl Hg Hu He) as (Hfu & _ & Hku). pose proof (Hg u Hu) as Hgu.
    destruct (is_hotfix (fst u)) eqn:Eu.
    - (* the failed tip is a hotfix one: only that queue loses its tip *)
      exists l. split; [apply suffix_refl|]. split; [|reflexivity].
      intros x Hx. pose proof (Hg x Hx) as Hgx.
      destruct (in_dec Z.eq_dec (q_pr e) (map q_pr (cur x))) as [Hfx|Hfx]; [|rewrite (c05_popf_notin _ _ Hfx); exact Hgx].
      destruct (c05_good_in l cur x _ Hl Hg Hx Hfx) as (Hfx0 & _ & Hkx). destruct (is_hotfix (fst x)) eqn:Ex.
      + assert (x = u) by (apply (c05_hf_unique x u (q_pr e)); assumption). subst x.
        destruct Hgx as (pre & Hp & Hb). rewrite Hc in *. rewrite c05_popf_head.
        exists (pre ++ [e]). rewrite <- app_assoc, forallb_app, Hb. cbn [forallb]. rewrite Hbad. split; [exact Hp | reflexivity].
      + congruence.
    - (* the failed tip is on a version of the path: every pull request from it on goes away *)
      rewrite Hc in Hgu. destruct (c05_sel_hd _ _ _ _ (eq_sym Hgu)) as (pre & t & -> & Hupre & Hpick).
      pose proof (suffix_NoDup Hl (NoDup_rev Hnd)) as Hndl. apply NoDup_app_iff in Hndl as (_ & _ & Hdis).
      assert (Hfpre : ~ In (q_pr e) pre) by (intro H; exact (Hdis _ H (or_introl eq_refl))).
      exists t. split; [exists (pre ++ [q_pr e]); rewrite <- app_assoc; reflexivity|]. split.
      + intros x Hx. pose proof (Hg x Hx) as Hgx. destruct (is_hotfix (fst x)) eqn:Ex.
        * rewrite c05_popf_notin; [exact Hgx|]. intro Hfx.
          destruct (c05_good_in _ cur x _ Hl Hg Hx Hfx) as (_ & _ & Hkx). congruence.
        * rewrite Hgx. apply c05_popf_sel; [exact Hfpre|]. intro Hfx. apply c05_sel_nil_iff. intros p Hp Hpx.
          destruct (Hchain x u Hx Hu Ex Eu) as [H|H]; [|exact (Hfx (H _ Hfu))].
          exact (proj1 (c05_sel_nil_iff _ _) Hupre p Hp (H _ Hpx)).
      + assert (Hbadu : forall a1 a2, pre = a1 ++ a2 -> okS (a2 ++ q_pr e :: t) = false).
        { intros a1 a2 ->. apply (forallb_false _ S0 u Hu). rewrite Eu, c05_sel_app, c05_sel_cons, Hpick.
          rewrite c05_sel_app in Hupre. apply app_eq_nil in Hupre as [_ ->].
          rewrite c05_bad_green in Hbad. apply negb_true_iff in Hbad. exact Hbad. }
        symmetry. rewrite c05_best_skip by (intros a1 a2 E _; exact (Hbadu a1 a2 E)).
        cbn [best]. rewrite (Hbadu pre [] (eq_sym (app_nil_r _)) : okS (q_pr e :: t) = false). reflexivity.
  Qed.

  Lemma c05_lookup_end l cur x :
    suffix l (rev order) -> Good l cur -> first_failed st (map (upd cur) S0) = 0 -> In x S0 ->
    cur x = kept (best okS l) x.
  Proof.
    intros Hl Hg Hz Hx.
    destruct (c05_first_failed_upd st cur S0) as [(u & e & r & Hu & Hc & _ & Hf)|[_ Htip]].
    - (* 0 is the "no failure" sentinel of _recursive_lookup: a failed tip would have it as its pull
         request id, but the ids in the queues are positive *)
      assert (He : In (q_pr e) (map q_pr (cur u))) by (rewrite Hc; left; reflexivity).
      destruct (c05_good_in l cur u _ Hl Hg Hu He) as (_ & Hp & _). rewrite Hz in Hf. rewrite <- Hf in Hp. lia.
    - unfold kept. pose proof (Hg x Hx) as Hgx. destruct (is_hotfix (fst x)).
      + destruct Hgx as (pre & -> & Hb). rewrite (c05_dropbad_app _ _ _ Hb).
        destruct (cur x) as [|e r] eqn:Ec; [reflexivity|]. cbn [dropbad]. rewrite (Htip x e r Hx Ec). reflexivity.
      + rewrite Hgx. f_equal. symmetry. apply c05_best_fix, forallb_forall. intros y Hy. specialize (Hg y Hy).
        destruct (is_hotfix (fst y)); [reflexivity|]. rewrite <- Hg.
        destruct (cur y) as [|e r] eqn:Ec; [reflexivity|]. specialize (Htip y e r Hy Ec).
        rewrite c05_bad_green in Htip. apply negb_false_iff in Htip. exact Htip.
  Qed.

  Lemma c05_lookup_shape fuel l cur :
    suffix l (rev order) -> Good l cur -> (entries (map (upd cur) S0) <= fuel)%nat ->
    recursive_lookup fuel st (map (upd cur) S0) = Ok (map (upd (kept (best okS l))) S0).
  Proof.
    intros Hl Hg Hent.
    destruct (c05_lookup_inv st (fun qs => exists l' cur', qs = map (upd cur') S0 /\ suffix l' (rev order)
                                                           /\ Good l' cur' /\ best okS l' = best okS l))
      with (fuel := fuel) (qs := map (upd cur) S0) as (qs' & -> & (l' & cur' & -> & Hl' & Hg' & Hb) & Hz).
    - intros qs (l' & cur' & -> & Hl' & Hg' & Hb) Hnz.
      destruct (c05_lookup_round l' cur' Hl' Hg' Hnz) as (l'' & Hs & Hg'' & Hb').
      rewrite c05_pop_upd. exists l''. eexists. split; [reflexivity|].
      split; [exact (suffix_trans Hs Hl')|]. split; [exact Hg'' | congruence].
    - exists l, cur. auto.
    - exact Hent.
    - f_equal. apply map_ext_in. intros x Hx. unfold upd.
      rewrite (c05_lookup_end l' cur' x Hl' Hg' Hz Hx), Hb. reflexivity.
  Qed.
End C05_Lookup.
