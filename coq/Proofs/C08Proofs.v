(* C08: what a named push can do to the remote ([bounded], [pushed]), and the names the deletion guard lets
   through ([owned_name]).  The atomic push and the merges are in FlowProofs. *)
From Coq Require Import List Bool Arith Lia.
From Coq Require String.
Require Import BertE.Model.Git BertE.Model.Flow BertE.Model.Owned BertE.Generated.Facts_C08
               BertE.Proofs.GitProofs BertE.Proofs.FlowProofs.
Import ListNotations.

Definition bounded (s : store) (r : refmap) : Prop := forall n x, lookup r n = Some x -> x < length s.

Definition push_one (s : store) (local : refmap) (r : refmap) (a : nat) : refmap :=
  match lookup local a with
  | Some c => if ref_acceptable s r a c then update r a c else r
  | None => r
  end.

Lemma push_names_unfold s local names remote :
  push_names s remote local names = fold_left (push_one s local) names remote.
Proof. reflexivity. Qed.

Lemma push_one_other s local r a n : n <> a -> lookup (push_one s local r a) n = lookup r n.
Proof.
  intro Na. unfold push_one. destruct (lookup local a) as [c|]; [|reflexivity].
  destruct (ref_acceptable s r a c); [apply lookup_update_neq; exact Na | reflexivity].
Qed.

Lemma push_names_untouched s local names : forall r n,
  ~ In n names -> lookup (push_names s r local names) n = lookup r n.
Proof.
  induction names as [|a t IH]; intros r n Hn; [reflexivity|].
  rewrite push_names_unfold. cbn [fold_left]. rewrite <- push_names_unfold.
  rewrite IH by (intro Hin; apply Hn; right; exact Hin).
  apply push_one_other. intros ->. apply Hn. left. reflexivity.
Qed.

(* what a non-forced push of [names] can do to the remote heads: the other names keep their value, every head
   only moves forward, and a new value is the local value of one of the names *)
Definition pushed (s : store) (local : refmap) (names : list nat) (r r' : refmap) : Prop :=
  (forall n, ~ In n names -> lookup r' n = lookup r n) /\
  (forall n old, lookup r n = Some old -> exists y, lookup r' n = Some y /\ Anc s old y) /\
  (forall n y, lookup r' n = Some y -> lookup r n = Some y \/ (In n names /\ lookup local n = Some y)).

Lemma pushed_refl s local names r : bounded s r -> pushed s local names r r.
Proof.
  intro B. split; [reflexivity|]. split; [|auto].
  intros n old L. exists old. split; [exact L | apply Anc_refl; exact (B n old L)].
Qed.

Lemma pushed_app s local n1 n2 r r1 r2 :
  pushed s local n1 r r1 -> pushed s local n2 r1 r2 -> pushed s local (n1 ++ n2) r r2.
Proof.
  intros (U1 & F1 & O1) (U2 & F2 & O2). split; [|split].
  - intros n Hn. rewrite in_app_iff in Hn. rewrite U2, U1 by tauto. reflexivity.
  - intros n old L. destruct (F1 n old L) as (y & Ly & Ay). destruct (F2 n y Ly) as (z & Lz & Az).
    exists z. split; [exact Lz | exact (Anc_trans _ _ _ _ Ay Az)].
  - intros n y L. rewrite in_app_iff. destruct (O2 n y L) as [L1|[Hin Ll]]; [|tauto].
    destruct (O1 n y L1) as [L0|[Hin Ll]]; tauto.
Qed.

Lemma push_one_spec s local remote a :
  wf_store s -> bounded s remote -> bounded s local ->
  bounded s (push_one s local remote a) /\ pushed s local [a] remote (push_one s local remote a).
Proof.
  intros W B Bl. unfold push_one.
  destruct (lookup local a) as [c|] eqn:La; [|split; [exact B | apply pushed_refl, B]].
  destruct (ref_acceptable s remote a c) eqn:Acc; [|split; [exact B | apply pushed_refl, B]].
  split; [|split; [|split]].
  - intros n x L. rewrite lookup_update in L.
    destruct (Nat.eqb a n); [injection L as <-; exact (Bl a c La) | exact (B n x L)].
  - intros n Hn. apply lookup_update_neq. intros ->. apply Hn. left. reflexivity.
  - intros n old L. rewrite lookup_update. destruct (Nat.eqb_spec a n) as [<-|_].
    + exists c. split; [reflexivity | exact (ref_acceptable_ff _ _ _ _ _ W Acc L)].
    + exists old. split; [exact L | apply Anc_refl; exact (B n old L)].
  - intros n y L. rewrite lookup_update in L. destruct (Nat.eqb_spec a n) as [<-|_].
    + injection L as <-. right. split; [left; reflexivity | exact La].
    + left. exact L.
Qed.

(* `git push origin a b ...` (non-forced, per ref): only the named refs can change, each one only forward
   (or be created from the local value); everything else keeps its value. *)
Theorem push_names_spec s local : forall names remote,
  wf_store s -> bounded s remote -> bounded s local ->
  pushed s local names remote (push_names s remote local names).
Proof.
  intros names remote W B Bl. revert remote B. induction names as [|a t IH]; intros remote B.
  - apply pushed_refl, B.
  - destruct (push_one_spec s local remote a W B Bl) as [B1 P1].
    exact (pushed_app s local [a] t _ _ _ P1 (IH _ B1)).
Qed.

Import String.StringSyntax.
Local Open Scope string_scope.
Notation string := String.string.

(* what the statement calls Bert-E's own branches *)
Definition owned_name (n : string) : Prop :=
  String.prefix "w/" n = true \/ String.prefix "q/" n = true \/ String.prefix "tmp/" n = true.

Example c08_examples :
  remove_guard "w/5.1/bugfix/x" false = true /\ remove_guard "development/5.1" false = false /\
  remove_guard "bugfix/w/x" false = false /\ remove_guard "development/5.1" true = true.
Proof. vm_compute. repeat split. Qed.

(* the third-party scenarios of the statement on a concrete graph *)
Example c08_push_example :
  let s := [mkCommit [] false; mkCommit [0] false; mkCommit [0] false; mkCommit [1] true] in
  (* clone knows dev(1)=1 src(2)=2, moved dev to 3; third party created branch 9 -> kept *)
  push_all_atomic s [(1, 1); (2, 2); (9, 2)] [(1, 3); (2, 2)] [] = Some [(1, 3); (2, 2); (9, 2)] /\
  (* third party moved the source branch 2 to commit 1 (not an ancestor of our 2) -> refused *)
  push_all_atomic s [(1, 1); (2, 1)] [(1, 3); (2, 2)] [] = None /\
  (* explicit deletion of our own branch 5 *)
  push_all_atomic s [(1, 1); (5, 2)] [(1, 3)] [5] = Some [(1, 3)].
Proof. vm_compute. repeat split. Qed.
