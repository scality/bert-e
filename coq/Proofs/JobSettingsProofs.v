(* Model/JobSettings.v: after init_settings every option has its default whatever the job was built with
   (init_resets); every other key is read as before (init_frame). What that means for a job built with or without
   settings of its own is drawn from these two in Properties/C06.v. *)
From Coq Require Import List String Bool.
Require Import BertE.Model.JobSettings.
Import ListNotations.
Open Scope string_scope.

Lemma sget_sset k k' v m : sget k (sset k' v m) = if k =? k' then Some v else sget k m.
Proof.
  induction m as [|[k2 v2] t IH]; cbn [sset sget]; [reflexivity|].
  destruct (String.eqb_spec k' k2) as [<-|N]; cbn [sget].
  - destruct (k =? k'); reflexivity.
  - rewrite IH. destruct (String.eqb_spec k k2) as [->|]; [|reflexivity].
    destruct (String.eqb_spec k2 k'); [congruence | reflexivity].
Qed.

Lemma jget_jput k k' v s : jget k (jput s (k', v)) = if k =? k' then Some v else jget k s.
Proof. unfold jget, jput. cbn [j_top j_base fst snd]. rewrite sget_sset. destruct (k =? k'); reflexivity. Qed.

Theorem init_frame opts : forall s k, ~ In k (map fst opts) -> jget k (init_settings opts s) = jget k s.
Proof.
  unfold init_settings. induction opts as [|[k' v] t IH]; intros s k H; [reflexivity|]. cbn [fold_left].
  rewrite IH, jget_jput; [|intros C; apply H; right; exact C].
  destruct (String.eqb_spec k k') as [->|]; [|reflexivity]. destruct H. left; reflexivity.
Qed.

Theorem init_resets opts : NoDup (map fst opts) ->
  forall s k d, In (k, d) opts -> jget k (init_settings opts s) = Some d.
Proof.
  unfold init_settings. induction opts as [|[k' v] t IH]; intros ND s k d Hin; [destruct Hin|].
  apply NoDup_cons_iff in ND as [Hnot ND]. cbn [fold_left].
  destruct Hin as [[= -> ->]|Hin]; [|exact (IH ND _ k d Hin)].
  rewrite (init_frame t _ k Hnot), jget_jput, String.eqb_refl. reflexivity.
Qed.

Example job_reads_example :
  job_reads [("bypass_build_status", 0); ("wait", 0)] [("build_key", 7); ("robot", 8)]
            (Some [("bypass_build_status", 1); ("build_key", 9)]) [("wait", 1)]
            ["bypass_build_status"; "wait"; "build_key"; "robot"; "unknown"]
  = [Some 0; Some 1; Some 9; Some 8; None].
Proof. vm_compute. reflexivity. Qed.
