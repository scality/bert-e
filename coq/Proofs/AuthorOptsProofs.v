(* The per-author grants in effect are exactly the ones listed for that author (Model/AuthorOpts.v). *)
From Coq Require Import List String Bool.
Require Import BertE.Model.AuthorOpts.
Import ListNotations.
Open Scope string_scope.

(* of the mem_str of Model/AuthorOpts.v, which stands alone and does not use Base/Str.v *)
Lemma mem_str_In k l : mem_str k l = true <-> In k l.
Proof.
  unfold mem_str. rewrite existsb_exists. split.
  - intros [x [Hx E]]. apply String.eqb_eq in E. subst x. exact Hx.
  - intros H. exists k. split; [exact H | apply String.eqb_refl].
Qed.

Lemma assoc_row names listed k :
  assoc k (ao_row names listed) = if mem_str k names then Some (mem_str k listed) else None.
Proof.
  induction names as [|n t IH]; cbn; [reflexivity|].
  destruct (String.eqb_spec k n) as [->|N]; cbn; [reflexivity | exact IH].
Qed.

Lemma known_listed names l :
  find (fun e => negb (mem_str e names)) l = None -> forall k, In k l -> In k names.
Proof.
  intros F k Hk. pose proof (find_none _ _ F k Hk) as H. cbn in H.
  apply negb_false_iff in H. apply mem_str_In. exact H.
Qed.

Theorem load_exact names : forall cfg tb,
  ao_load names cfg = Loaded tb -> NoDup (map fst cfg) ->
  forall a k, ao_granted tb a k = true <-> exists l, In (a, l) cfg /\ In k l.
Proof.
  induction cfg as [|[u l] t IH]; intros tb L ND a k.
  - cbn in L. injection L as <-. cbn. split; [discriminate | intros [l [[] _]]].
  - cbn in L. destruct (find (fun e => negb (mem_str e names)) l) as [e|] eqn:F; [discriminate|].
    destruct (ao_load names t) as [e|tb'] eqn:Lt; [discriminate|]. injection L as <-.
    cbn in ND. inversion ND as [|x xs Hnot ND' Eq]; subst x xs.
    unfold ao_granted. cbn [assoc]. destruct (String.eqb_spec a u) as [->|N].
    + rewrite assoc_row. split.
      * intros H. destruct (mem_str k names) eqn:Mn; [|discriminate].
        exists l. split; [left; reflexivity | apply mem_str_In; exact H].
      * intros [l0 [[E|Hin] Hk]].
        -- injection E as <-. rewrite (proj2 (mem_str_In k names) (known_listed names l F k Hk)).
           apply mem_str_In. exact Hk.
        -- contradiction (Hnot (in_map fst t (u, l0) Hin)).
    + specialize (IH tb' eq_refl ND' a k). unfold ao_granted in IH. rewrite IH. split.
      * intros [l0 [Hin Hk]]. exists l0. split; [right; exact Hin | exact Hk].
      * intros [l0 [[E|Hin] Hk]]; [injection E as E1 _; symmetry in E1; contradiction|].
        exists l0. split; assumption.
Qed.

Lemma load_cases names cfg :
  match ao_load names cfg with
  | LoadError e => exists u l, In (u, l) cfg /\ In e l /\ ~ In e names
  | Loaded _ => forall u l k, In (u, l) cfg -> In k l -> In k names
  end.
Proof.
  induction cfg as [|[u l] t IH]; cbn [ao_load]; [intros u l k []|].
  destruct (find (fun e => negb (mem_str e names)) l) as [e|] eqn:F.
  - apply find_some in F as [Hin Hn]. exists u, l. split; [left; reflexivity | split; [exact Hin|]].
    intro C. apply mem_str_In in C. rewrite C in Hn. discriminate Hn.
  - destruct (ao_load names t) as [e|tb].
    + destruct IH as (u0 & l0 & Hin & R). exists u0, l0. split; [right; exact Hin | exact R].
    + intros u0 l0 k [E|Hin]; [injection E as <- <-; exact (known_listed names l F k) | exact (IH u0 l0 k Hin)].
Qed.

(* non-vacuity: two authors, different grants; the second inherits nothing from the first *)
Example two_authors :
  ao_outcome ["bypass_a"; "bypass_b"; "bypass_c"]
             [("svc-bot", ["bypass_b"; "bypass_a"]); ("carol", ["bypass_c"])] ["svc-bot"; "carol"; "car"; "bot"]
  = inr [["bypass_a"; "bypass_b"]; ["bypass_c"]; []; []].
Proof. vm_compute. reflexivity. Qed.
