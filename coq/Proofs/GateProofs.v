(* The decisions that precede the direct merge (Model/Gate.v), connected to the hypotheses of the direct-merge
   theorem (C03Proofs.direct_merge_lands_on_built_commits) and to the new-tips clause of C06.  After
   update_integration_branches the integration branches are in sync and contain their destinations
   (update_establishes_sync); when they already were, nothing changes (update_noop_when_current); a branch that does
   move lands on a commit created by this job, unknown to the build table, or is fast-forwarded onto an existing tip
   (update_new_tip_is_fresh, new_tips_are_unbuilt); is_needed = false with check_in_sync = true are the hypotheses
   of the direct-merge theorem (is_needed_false_iff, skip_queue_direct_merge).  In Gate's [pairs] and [wds] a pair is
   (integration branch, destination); merge_integration takes (destination, integration branch), hence [swap].
   Imported by JobProofs (update_ops_dsts) and by Properties/C03.v and C06.v. *)
From Coq Require Import List Bool Arith Lia.
Require Import BertE.Model.Git BertE.Model.Flow BertE.Model.Gate.
Require Import BertE.Proofs.GitProofs BertE.Proofs.FlowProofs BertE.Proofs.C03Proofs.
Import ListNotations.

Lemma includes_tip_spec c b a : wf_clone c -> (includes_tip c b a = true <-> Below c a b).
Proof.
  intros [W _]. unfold includes_tip, Below. split.
  - intro H. destruct (lookup (refs c) a) as [x|]; [|discriminate H].
    destruct (lookup (refs c) b) as [y|]; [|discriminate H].
    exists x, y. split; [reflexivity|]. split; [reflexivity|]. apply anc_spec; assumption.
  - intros (x & y & La & Lb & A). rewrite La, Lb. apply anc_spec; assumption.
Qed.

Fixpoint sync_chain (c : clone) (prev : name) (ws : list name) : Prop :=
  match ws with
  | [] => True
  | w :: t => Below c prev w /\ sync_chain c w t
  end.

Lemma check_in_sync_spec c ws : forall prev, wf_clone c -> (check_in_sync c prev ws = true <-> sync_chain c prev ws).
Proof.
  induction ws as [|w t IH]; intros prev W; cbn [check_in_sync sync_chain]; [tauto|].
  destruct (includes_tip c w prev) eqn:I.
  - apply (includes_tip_spec c w prev W) in I. rewrite (IH w W). tauto.
  - split; [discriminate|]. intros [B _]. apply (includes_tip_spec c w prev W) in B. congruence.
Qed.

(* the code starts the walk with the ghost branch, which is the source branch itself *)
Lemma check_in_sync_ghost c src ws : wf_clone c ->
  (check_in_sync c src (src :: ws) = true <-> lookup (refs c) src <> None /\ sync_chain c src ws).
Proof.
  intro W. rewrite (check_in_sync_spec c (src :: ws) src W). cbn [sync_chain]. split.
  - intros [B S]. split; [exact (Below_left_some _ _ _ B) | exact S].
  - intros [L S]. split; [exact (Below_refl c src W L) | exact S].
Qed.

Lemma sync_chain_stable c c' ws : forall prev,
  extends (st c) (st c') -> (forall n, In n (prev :: ws) -> lookup (refs c') n = lookup (refs c) n) ->
  sync_chain c prev ws -> sync_chain c' prev ws.
Proof.
  induction ws as [|w t IH]; intros prev E U S; cbn [sync_chain] in *; [exact I|].
  destruct S as [B S]. split.
  - apply (Below_transport c c' prev w); [exact E | apply U; left; reflexivity | apply U; right; left; reflexivity | exact B].
  - apply IH; [exact E | | exact S]. intros n Hn. apply U. right. exact Hn.
Qed.

Definition update_names_ok (src : name) (pairs : list (name * name)) : Prop :=
  NoDup (src :: map fst pairs) /\ (forall d, In d (map snd pairs) -> ~ In d (map fst pairs)).

Lemma update_ops_dsts sg prev pairs n : In n (map op_dst (update_ops sg prev pairs)) -> In n (map fst pairs).
Proof.
  revert sg prev. induction pairs as [|[w d] rest IH]; intros sg prev H; cbn in H; [destruct H|].
  rewrite map_app, in_app_iff in H. destruct H as [H|H].
  - left. symmetry. exact (strategy_ops_dsts _ _ _ _ _ H).
  - right. exact (IH _ _ H).
Qed.

Lemma run_ops_noop ops c :
  wf_clone c ->
  (forall o, In o ops -> lookup (refs c) (op_dst o) <> None /\ forall s, In s (op_srcs o) -> Below c s (op_dst o)) ->
  run_ops c ops = Some c.
Proof.
  intros W H. induction ops as [|o t IH]; [reflexivity|]. cbn [run_ops].
  destruct (H o (or_introl eq_refl)) as [L B]. rewrite (merge_into_uptodate c _ _ W L B).
  apply IH. intros o' Ho'. apply H. right. exact Ho'.
Qed.

Lemma strategy_noop sg c w d prev :
  wf_clone c -> Below c d w -> Below c prev w -> run_ops c (strategy_ops sg w d prev) = Some c.
Proof.
  intros W Bd Bp. apply (run_ops_noop _ c W). intros o Ho.
  rewrite (strategy_ops_dsts sg w d prev _ (in_map op_dst _ _ Ho)).
  split; [exact (Below_right_some _ _ _ Bd)|]. intros s Hs.
  assert (K : In s (flat_map op_srcs (strategy_ops sg w d prev))) by (apply in_flat_map; exists o; auto).
  apply strategy_ops_srcs in K as [->| ->]; assumption.
Qed.

(* Exactly which integration branches move.  [current c c' w d prev]: the tip [w] had before the update already
   contains the tip of its destination and the tip its predecessor has AFTER the update (the source branch never
   moves; an integration branch further up may just have been updated itself). *)
Definition current (c c' : clone) (w d prev : name) : Prop :=
  exists x y z, lookup (refs c) w = Some x /\ lookup (refs c') d = Some y /\ lookup (refs c') prev = Some z /\
                Anc (st c') y x /\ Anc (st c') z x.

Fixpoint moves_exactly (c c' : clone) (prev : name) (pairs : list (name * name)) : Prop :=
  match pairs with
  | [] => True
  | (w, d) :: rest =>
      (lookup (refs c') w = lookup (refs c) w <-> current c c' w d prev) /\ moves_exactly c c' w rest
  end.

Lemma moves_exactly_ext c0 c c' pairs : forall prev,
  (forall w, In w (map fst pairs) -> lookup (refs c0) w = lookup (refs c) w) ->
  moves_exactly c c' prev pairs -> moves_exactly c0 c' prev pairs.
Proof.
  induction pairs as [|[w d] rest IH]; intros prev U M; cbn [moves_exactly] in *; [exact I|].
  destruct M as [Iff M]. split.
  - unfold current in *. rewrite (U w (or_introl eq_refl)). exact Iff.
  - apply IH; [|exact M]. intros w' Hw'. apply U. right. exact Hw'.
Qed.

(* ancestry of a commit the clone already had is decided in its own, shorter store *)
Lemma Anc_before c c' x y : grows c c' -> Anc (st c') x y -> y < length (st c) -> Anc (st c) x y.
Proof. intros ((Ws' & _) & [ext E] & _) A. rewrite E in Ws', A. exact (Anc_prefix _ _ _ _ Ws' A). Qed.

Lemma update_chain pairs : forall sg c prev c',
  wf_clone c -> update_names_ok prev pairs ->
  run_ops c (update_ops sg prev pairs) = Some c' ->
  grows c c' /\ (forall n, ~ In n (map fst pairs) -> lookup (refs c') n = lookup (refs c) n) /\
  sync_chain c' prev (map fst pairs) /\ (forall w d, In (w, d) pairs -> Below c' d w) /\
  moves_exactly c c' prev pairs.
Proof.
  induction pairs as [|[w d] rest IH]; intros sg c prev c' W [ND Dis] H.
  - cbn in H. injection H as <-. split; [apply grows_refl; exact W|]. split; [reflexivity|].
    split; [exact I|]. split; [intros ? ? [] | exact I].
  - cbn [update_ops] in H. rewrite run_ops_app in H.
    set (s0 := match sg with x :: _ => x | [] => Octopus end) in *.
    destruct (run_ops c (strategy_ops s0 w d prev)) as [c1|] eqn:S; [|discriminate H].
    cbn [map fst snd] in ND, Dis |- *.
    apply NoDup_cons_iff in ND as [[Npw Np]%not_in_cons ND'].
    pose proof (Dis d (or_introl eq_refl)) as [Ndw Nd]%not_in_cons.
    destruct (strategy_merges s0 c w d prev c1 W (not_eq_sym Ndw) (not_eq_sym Npw) S) as (G1 & U1 & Bd & Bp).
    destruct (IH (tl sg) c1 w c' (proj1 G1)) as (G2 & U2 & Ch & Bds & Mv);
      [| exact H |].
    { split; [exact ND'|]. intros d' Hd' Hin. apply (Dis d'); [right; exact Hd' | right; exact Hin]. }
    pose proof (proj1 (proj2 G2)) as E2. pose proof (proj1 (NoDup_cons_iff _ _) ND') as [Nw _].
    pose proof (grows_trans _ _ _ G1 G2) as G.
    pose proof (Below_transport c1 c' _ _ _ _ E2 (U2 _ Np) (U2 _ Nw) Bp) as Bp'.
    pose proof (Below_transport c1 c' _ _ _ _ E2 (U2 _ Nd) (U2 _ Nw) Bd) as Bd'.
    split; [exact G|]. split; [|split; [|split]].
    + intros n [n1 n2]%not_in_cons. rewrite (U2 n n2). exact (U1 n n1).
    + split; [exact Bp' | exact Ch].
    + intros w' d' [Eq|Hin]; [|exact (Bds w' d' Hin)]. injection Eq as <- <-. exact Bd'.
    + split; [split|].
      * intro Same. destruct Bd' as (y & x' & Ld' & Lw' & A1). destruct Bp' as (z & x'' & Lp' & Lw'' & A2).
        rewrite Lw' in Lw''. injection Lw'' as <-. exists x', y, z. rewrite <- Same. auto.
      * (* current: d and prev did not move, so the two inclusions held before, in the old store: the step
           on w was a no-op *)
        intros (x & y & z & Lx & Ly & Lz & Ay & Az).
        rewrite (U2 d Nd), (U1 d Ndw) in Ly. rewrite (U2 prev Np), (U1 prev Npw) in Lz.
        pose proof (proj2 W w x Lx) as Ltx.
        assert (Bd0 : Below c d w) by (exists y, x; split; [exact Ly|]; split; [exact Lx|]; exact (Anc_before c c' y x G Ay Ltx)).
        assert (Bp0 : Below c prev w) by (exists z, x; split; [exact Lz|]; split; [exact Lx|]; exact (Anc_before c c' z x G Az Ltx)).
        rewrite (strategy_noop s0 c w d prev W Bd0 Bp0) in S. injection S as <-. exact (U2 w Nw).
      * apply (moves_exactly_ext c c1); [|exact Mv]. intros w' Hw'. symmetry. apply U1. intros ->. exact (Nw Hw').
Qed.

Theorem update_establishes_sync sg c src pairs c' :
  wf_clone c -> update_names_ok src pairs -> lookup (refs c) src <> None ->
  update_integration sg c src pairs = Some c' ->
  check_in_sync c' src (src :: map fst pairs) = true /\
  sync_chain c' src (map fst pairs) /\
  (forall w d, In (w, d) pairs -> Below c' d w) /\
  grows c c' /\
  (forall n, ~ In n (map fst pairs) -> lookup (refs c') n = lookup (refs c) n).
Proof.
  intros W Ok Ls H. unfold update_integration in H.
  destruct (update_chain pairs sg c src c' W Ok H) as (G & U & Ch & Bd & _).
  split; [|split; [exact Ch|]; split; [exact Bd|]; split; [exact G | exact U]].
  apply (check_in_sync_ghost c' src (map fst pairs) (proj1 G)). split; [|exact Ch].
  rewrite U; [exact Ls|]. destruct Ok as [ND _]. inversion ND; assumption.
Qed.

Lemma update_noop pairs : forall sg c prev,
  wf_clone c -> sync_chain c prev (map fst pairs) -> (forall w d, In (w, d) pairs -> Below c d w) ->
  run_ops c (update_ops sg prev pairs) = Some c.
Proof.
  induction pairs as [|[w d] rest IH]; intros sg c prev W S Bd; [reflexivity|].
  cbn [update_ops]. rewrite run_ops_app. cbn [map fst sync_chain] in S. destruct S as [Bp S].
  rewrite (strategy_noop _ c w d prev W (Bd w d (or_introl eq_refl)) Bp).
  apply IH; [exact W | exact S |]. intros w' d' Hin. apply Bd. right. exact Hin.
Qed.

(* In the terms of the code: check_in_sync answered True and every integration branch includes the tip of its
   destination.  Whatever the strategies, no commit is created and no branch moves: the clone is the same, so
   the tips whose statuses check_build_status reads next are the tips the statuses were reported on. *)
Theorem update_noop_when_current sg c src pairs :
  wf_clone c -> check_in_sync c src (src :: map fst pairs) = true ->
  (forall w d, In (w, d) pairs -> includes_tip c w d = true) ->
  update_integration sg c src pairs = Some c.
Proof.
  intros W S Bd. apply (check_in_sync_ghost c src _ W) in S as [_ S].
  apply update_noop; [exact W | exact S |].
  intros w d Hin. apply (includes_tip_spec c w d W). exact (Bd w d Hin).
Qed.

Corollary update_noop_reads_same_statuses {A : Type} (ns : A) (build : cid -> option A) sg c src pairs c' ws :
  wf_clone c -> check_in_sync c src (src :: map fst pairs) = true ->
  (forall w d, In (w, d) pairs -> includes_tip c w d = true) ->
  update_integration sg c src pairs = Some c' ->
  st c' = st c /\ refs c' = refs c /\ statuses_read ns build c' ws = statuses_read ns build c ws.
Proof.
  intros W S Bd H. rewrite (update_noop_when_current sg c src pairs W S Bd) in H. injection H as <-.
  repeat split.
Qed.

(* where one `git merge` leaves the branch: where it was (up to date), on one of the named sources (fast-forward),
   or on the one commit it creates, which is appended to the store and so has the old length as its index *)
Lemma apply_merge_tip_cases s h srcs :
  snd (apply_merge s h srcs) = h \/ In (snd (apply_merge s h srcs)) srcs \/
  snd (apply_merge s h srcs) = length s.
Proof.
  unfold apply_merge, git_merge.
  match goal with |- context [reduce s ?cnd] => set (cand := cnd) end.
  destruct (reduce s cand) as [|r [|r2 rest]] eqn:R.
  - left. reflexivity.
  - destruct (anc s h r); [|right; right; reflexivity].
    right. left. cbn.
    assert (Hr : In r (reduce s cand)) by (rewrite R; left; reflexivity).
    apply reduce_In in Hr. unfold cand in Hr. apply filter_In in Hr as [Hr _].
    exact (proj1 (dedupe_first_In _ _) Hr).
  - right. right. destruct (existsb (fun r0 => anc s h r0) (r :: r2 :: rest)); reflexivity.
Qed.

Lemma merge_into_tip_cases c dst srcs c' : merge_into c dst srcs = Some c' ->
  lookup (refs c') dst = lookup (refs c) dst \/
  (exists s, In s srcs /\ lookup (refs c') dst = lookup (refs c) s) \/
  lookup (refs c') dst = Some (length (st c)).
Proof.
  intro H. unfold merge_into in H.
  destruct (lookup (refs c) dst) as [h|] eqn:Lh; [|discriminate H].
  destruct (lookups (refs c) srcs) as [ss|] eqn:Ls; [|discriminate H].
  injection H as <-. cbn [st refs]. rewrite lookup_update_eq.
  destruct (apply_merge_tip_cases (st c) h ss) as [T|[T|T]].
  - left. rewrite T. reflexivity.
  - right. left. destruct (proj2 (proj2 (lookups_spec _ _ _ Ls)) _ T) as (n & Hn & Ln).
    exists n. split; [exact Hn | congruence].
  - right. right. rewrite T. reflexivity.
Qed.

Lemma run_ops_tips ops : forall c c', wf_clone c -> run_ops c ops = Some c' ->
  forall n x', lookup (refs c') n = Some x' ->
  length (st c) <= x' \/
  exists m, (m = n \/ In m (flat_map op_srcs ops)) /\ lookup (refs c) m = Some x'.
Proof.
  induction ops as [|o t IH]; intros c c' W H n x' L; cbn in H.
  - injection H as <-. right. exists n. split; [left; reflexivity | exact L].
  - destruct (merge_into c (op_dst o) (op_srcs o)) as [c1|] eqn:M; [|discriminate H].
    destruct (merge_into_spec _ _ _ _ W M) as (W1 & E1 & Oth & _).
    pose proof (extends_length _ _ E1) as Len.
    destruct (IH c1 c' W1 H n x' L) as [Fr|(m & Hm & Lm)]; [left; lia|].
    assert (Hm' : m = n \/ In m (flat_map op_srcs (o :: t))).
    { destruct Hm as [->|Hm]; [left; reflexivity|]. right. cbn. apply in_or_app. right. exact Hm. }
    destruct (Nat.eq_dec m (op_dst o)) as [Em|Ne].
    + subst m. destruct (merge_into_tip_cases _ _ _ _ M) as [T|[(s & Hs & T)|T]].
      * right. exists (op_dst o). split; [exact Hm' | congruence].
      * right. exists s. split; [right; cbn; apply in_or_app; left; exact Hs | congruence].
      * left. rewrite T in Lm. injection Lm as <-. lia.
    + right. exists m. split; [exact Hm'|]. rewrite <- (Oth m Ne). exact Lm.
Qed.

Lemma update_ops_srcs sg prev pairs n :
  In n (flat_map op_srcs (update_ops sg prev pairs)) -> In n (prev :: map fst pairs ++ map snd pairs).
Proof.
  revert sg prev. induction pairs as [|[w d] rest IH]; intros sg prev H; cbn [update_ops] in H; [destruct H|].
  rewrite flat_map_app, in_app_iff in H. cbn [map fst snd app]. destruct H as [H|H].
  - apply strategy_ops_srcs in H as [->| ->]; [|left; reflexivity].
    right. right. apply in_or_app. right. left. reflexivity.
  - specialize (IH _ _ H). right. destruct IH as [<-|IH]; [left; reflexivity|].
    right. apply in_app_iff in IH. apply in_or_app. destruct IH as [IH|IH]; [left; exact IH | right; right; exact IH].
Qed.

(* Every integration branch after the update: it moved forward, and its tip is
     - the tip it had (it did not move), or
     - a commit created by this job (index >= length of the old store), or
     - an EXISTING commit reached by fast-forward: a descendant, in the old graph, of its former tip that was
       already the tip of the source branch, of a destination or of another integration branch. *)
Theorem update_new_tip_is_fresh sg c src pairs c' :
  wf_clone c -> update_names_ok src pairs -> lookup (refs c) src <> None ->
  update_integration sg c src pairs = Some c' ->
  forall w d x x', In (w, d) pairs -> lookup (refs c) w = Some x -> lookup (refs c') w = Some x' ->
  Anc (st c') x x' /\
  (x' = x \/
   length (st c) <= x' \/
   (x' < length (st c) /\ x' <> x /\ Anc (st c) x x' /\
    exists m, In m (src :: map fst pairs ++ map snd pairs) /\ lookup (refs c) m = Some x')).
Proof.
  intros W Ok Ls H w d x x' Hin Lx Lx'. unfold update_integration in H.
  destruct (run_ops_grows _ _ _ W H) as [G _].
  destruct (proj1 (proj2 (proj2 G)) w x Lx) as (y & Ly & A). rewrite Lx' in Ly. injection Ly as <-.
  split; [exact A|].
  destruct (Nat.eq_dec x' x) as [Eq|Ne]; [left; exact Eq|]. right.
  destruct (Nat.lt_ge_cases x' (length (st c))) as [Lt|Ge]; [right | left; exact Ge].
  split; [exact Lt|]. split; [exact Ne|]. split.
  - exact (Anc_before c c' x x' G A Lt).
  - destruct (run_ops_tips _ _ _ W H w x' Lx') as [Fr|(m & Hm & Lm)]; [lia|].
    exists m. split; [|exact Lm]. destruct Hm as [->|Hm]; [|exact (update_ops_srcs _ _ _ _ Hm)].
    right. apply in_or_app. left. apply in_map_iff. exists (w, d). split; [reflexivity | exact Hin].
Qed.

Theorem update_moves pairs sg c prev c' :
  wf_clone c -> update_names_ok prev pairs ->
  run_ops c (update_ops sg prev pairs) = Some c' ->
  moves_exactly c c' prev pairs.
Proof. intros W Ok H. apply (update_chain pairs sg c prev c' W Ok H). Qed.

(* The build table of the git host (for C06).  [build x = None]: nothing was reported on x, which the host
   answers as NOTSTARTED ([ns]).  A table that only mentions commits of the old store is any table that exists
   before the job runs: statuses are reported on commits that exist. *)
Definition table_within {A : Type} (build : cid -> option A) (s : store) : Prop :=
  forall x, build x <> None -> x < length s.

Lemma fresh_commit_unbuilt {A : Type} (ns : A) (build : cid -> option A) s x :
  table_within build s -> length s <= x -> build x = None /\ status_at ns build x = ns.
Proof.
  intros T Ge. assert (E : build x = None).
  { destruct (build x) as [a|] eqn:B; [|reflexivity]. assert (K : x < length s) by (apply T; congruence). lia. }
  split; [exact E|]. unfold status_at. rewrite E. reflexivity.
Qed.

Theorem new_tips_are_unbuilt {A : Type} (ns : A) (build : cid -> option A) sg c src pairs c' :
  wf_clone c -> update_names_ok src pairs -> lookup (refs c) src <> None ->
  table_within build (st c) ->
  update_integration sg c src pairs = Some c' ->
  forall w d x x', In (w, d) pairs -> lookup (refs c) w = Some x -> lookup (refs c') w = Some x' ->
  (* not moved: the status read is the one reported on that very tip *)
  x' = x \/
  (* a commit created by this job: nothing can have been reported on it *)
  (length (st c) <= x' /\ build x' = None /\ status_at ns build x' = ns) \/
  (* a fast-forward onto a commit that was already a tip of the source, a destination or an integration branch *)
  (x' < length (st c) /\ x' <> x /\ Anc (st c) x x' /\
   exists m, In m (src :: map fst pairs ++ map snd pairs) /\ lookup (refs c) m = Some x').
Proof.
  intros W Ok Ls T H w d x x' Hin Lx Lx'.
  destruct (update_new_tip_is_fresh sg c src pairs c' W Ok Ls H w d x x' Hin Lx Lx') as [_ [E|[Ge|Ff]]].
  - left. exact E.
  - right. left. split; [exact Ge|]. exact (fresh_commit_unbuilt ns build (st c) x' T Ge).
  - right. right. exact Ff.
Qed.

Lemma statuses_read_fresh {A : Type} (ns : A) (build : cid -> option A) s c' ws w x' :
  table_within build s -> In w ws -> lookup (refs c') w = Some x' -> length s <= x' ->
  forall ss, statuses_read ns build c' ws = Some ss -> In ns ss.
Proof.
  intros T Hw Lx Ge ss R. unfold statuses_read in R.
  destruct (lookups (refs c') ws) as [tips|] eqn:Ls; [|discriminate R]. injection R as <-.
  apply in_map_iff. exists x'. split; [exact (proj2 (fresh_commit_unbuilt ns build s x' T Ge))|].
  exact (proj1 (proj2 (lookups_spec _ _ _ Ls)) w x' Hw Lx).
Qed.

Lemma some_wbranch_behind_spec c wds : wf_clone c ->
  (some_wbranch_behind c wds = false <-> forall w d, In (w, d) wds -> Below c d w).
Proof.
  intro W. induction wds as [|[w d] t IH]; cbn [some_wbranch_behind].
  - split; [intros _ ? ? [] | reflexivity].
  - destruct (includes_tip c w d) eqn:I; cbn [negb].
    + apply (includes_tip_spec c w d W) in I. rewrite IH. split.
      * intros H w' d' [Eq|Hin]; [injection Eq as <- <-; exact I | exact (H w' d' Hin)].
      * intros H w' d' Hin. apply H. right. exact Hin.
    + split; [discriminate|]. intro H. specialize (H w d (or_introl eq_refl)).
      apply (includes_tip_spec c w d W) in H. congruence.
Qed.

Theorem is_needed_false_iff skip aiq qn c src dst wds :
  wf_clone c ->
  (is_needed true skip aiq qn c src dst wds = false <->
   skip = true /\ aiq = false /\ qn = false /\ Below c dst src /\ forall w d, In (w, d) wds -> Below c d w).
Proof.
  intro W. unfold is_needed. cbn [negb].
  destruct skip, aiq, qn; cbn [negb orb];
    try (split; [discriminate | intros (? & ? & ? & _); discriminate]).
  destruct (includes_tip c src dst) eqn:I; cbn [negb].
  - apply (includes_tip_spec c src dst W) in I. rewrite (some_wbranch_behind_spec c wds W). tauto.
  - split; [discriminate|]. intros (_ & _ & _ & B & _). apply (includes_tip_spec c src dst W) in B. congruence.
Qed.

Lemma In_swap (l : list (name * name)) t w : In (t, w) (map swap l) <-> In (w, t) l.
Proof.
  rewrite in_map_iff. split.
  - intros ([a b] & E & Hin). cbn in E. injection E as <- <-. exact Hin.
  - intro Hin. exists (w, t). split; [reflexivity | exact Hin].
Qed.

Lemma sync_chain_ff_chain c wds : forall p,
  sync_chain c p (map fst wds) -> (forall w d, In (w, d) wds -> Below c d w) -> ff_chain c p (map swap wds).
Proof.
  induction wds as [|[w d] rest IH]; intros p S Bw; [exact I|].
  cbn [map fst sync_chain] in S. destruct S as [Bp S].
  split; [exact Bp|]. split; [exact (Bw w d (or_introl eq_refl))|].
  apply IH; [exact S|]. intros w' d' Hin. exact (Bw w' d' (or_intror Hin)).
Qed.

(* The composition.  [src, dst]: source branch and first target; [wds]: (integration branch, target) beyond the
   first target; merge_integration_branches runs on ((dst, src) :: the swapped pairs) with one strategy per pair.
   From what the code has just decided - use_queue on, is_needed False (hence skip_queue_when_not_needed on, nothing
   queued), check_in_sync True - and a strategy list that takes the integration branch first or is an octopus:
   the direct merge succeeds, creates NO commit, puts the first target on the tip of the source branch and every
   other target on the tip of its integration branch (the commits whose statuses check_build_status read), and
   moves nothing else. *)
Theorem skip_queue_direct_merge sg skip aiq qn c src dst wds :
  wf_clone c ->
  NoDup (dst :: map snd wds) ->
  (forall w, In w (src :: map fst wds) -> ~ In w (dst :: map snd wds)) ->
  Forall (fun s => ff_strategy s = true) sg -> length sg = length wds ->
  is_needed true skip aiq qn c src dst ((src, dst) :: wds) = false ->
  check_in_sync c src (src :: map fst wds) = true ->
  exists c', merge_integration sg c ((dst, src) :: map swap wds) = Some c' /\
             st c' = st c /\
             lookup (refs c') dst = lookup (refs c) src /\
             (forall w d, In (w, d) wds -> lookup (refs c') d = lookup (refs c) w) /\
             (forall n, ~ In n (dst :: map snd wds) -> lookup (refs c') n = lookup (refs c) n).
Proof.
  intros W NDt Dis Fs Len N S.
  destruct (proj1 (is_needed_false_iff _ _ _ _ _ _ _ W) N) as (_ & _ & _ & Bds & Bw).
  apply (check_in_sync_ghost c src _ W) in S as [Ls Ch].
  destruct (lookup (refs c) src) as [xs|] eqn:Lxs; [clear Ls | congruence].
  pose proof (proj1 (proj1 (NoDup_cons_iff _ _) NDt)) as Nd.
  assert (Wnot : forall w d, In (w, d) wds -> w <> dst).
  { intros w d Hin ->. exact (Dis dst (or_intror (in_map fst _ _ Hin)) (or_introl eq_refl)). }
  assert (Dnot : forall w d, In (w, d) wds -> d <> dst).
  { intros w d Hin ->. exact (Nd (in_map snd _ _ Hin)). }
  unfold merge_integration. cbn [merge_integration_ops run_ops op_dst op_srcs].
  assert (Bss : Below c src src) by (apply Below_refl; [exact W | congruence]).
  rewrite (merge_into_ff c dst [src] src xs W (or_introl eq_refl) Lxs Bds) by (intros s [<-|[]]; exact Bss).
  set (c0 := mkClone (st c) (update (refs c) dst xs)).
  assert (W0 : wf_clone c0) by (apply wf_clone_update; [exact W | exact (proj2 W src xs Lxs)]).
  destruct (direct_merge_chain (map swap wds) sg c0 dst W0 Fs) as (c' & R & St & E & U).
  - rewrite map_length. exact Len.
  - rewrite map_map. exact NDt.
  - intros w Hw. rewrite map_map in Hw |- *. apply Dis. right. exact Hw.
  - (* the first target now sits on the source tip; no other name of the chain is dst *)
    apply (ff_chain_transport _ c c0 src dst); [apply extends_refl | | | exact (sync_chain_ff_chain c wds src Ch (fun w d Hin => Bw w d (or_intror Hin)))].
    + cbn [refs c0]. rewrite Lxs. apply lookup_update_eq.
    + intros t w Hin. apply (proj1 (In_swap wds t w)) in Hin.
      split; apply lookup_update_neq; [exact (Dnot w t Hin) | exact (Wnot w t Hin)].
  - rewrite map_map in U. exists c'. split; [exact R|]. split; [rewrite St; reflexivity|].
    split; [|split].
    + rewrite (U dst Nd). cbn [refs c0]. apply lookup_update_eq.
    + intros w d Hin. rewrite (E d w (proj2 (In_swap wds d w) Hin)). cbn [refs c0].
      apply lookup_update_neq. exact (Wnot w d Hin).
    + intros n [n1 n2]%not_in_cons. rewrite (U n n2). cbn [refs c0]. apply lookup_update_neq. exact n1.
Qed.

(* Non-vacuity.  Targets 1 < 2 < 3 (names), source branch 10, integration branches 12 and 13.
   commits: 0 root; 1, 2, 3 the tips of the targets; 4 the pull request's commit (on top of 1);
   5 = merge(2, 4) the tip of w/2; 6 = merge(3, 5) the tip of w/3;
   7 another change on target 2, 8 = merge(3, 7) its forward-port on target 3 (used by gate_ex_moved). *)
Definition gate_ex_store : store :=
  [mkCommit [] false; mkCommit [0] false; mkCommit [1] false; mkCommit [2] false;
   mkCommit [1] false; mkCommit [2; 4] true; mkCommit [3; 5] true].
Definition gate_ex_current : clone := mkClone gate_ex_store [(1, 1); (2, 2); (3, 3); (10, 4); (12, 5); (13, 6)].
Definition gate_ex_store2 : store := gate_ex_store ++ [mkCommit [2] false; mkCommit [3; 7] true].
Definition gate_ex_moved : clone := mkClone gate_ex_store2 [(1, 1); (2, 7); (3, 8); (10, 4); (12, 5); (13, 6)].
Definition gate_ex_wds : list (name * name) := [(12, 2); (13, 3)].

Lemma gate_ex_current_wf : wf_clone gate_ex_current.
Proof. apply wf_clone_b_spec. reflexivity. Qed.

Lemma gate_ex_moved_wf : wf_clone gate_ex_moved.
Proof. apply wf_clone_b_spec. reflexivity. Qed.

Lemma gate_ex_names_ok : update_names_ok 10 gate_ex_wds.
Proof.
  split.
  - cbn. repeat constructor; cbn; intuition discriminate.
  - cbn. intros d [<-|[<-|[]]]; intuition discriminate.
Qed.

Lemma gate_ex_direct_names :
  NoDup (1 :: map snd gate_ex_wds) /\ (forall w, In w (10 :: map fst gate_ex_wds) -> ~ In w (1 :: map snd gate_ex_wds)).
Proof.
  split.
  - cbn. repeat constructor; cbn; intuition discriminate.
  - cbn. intros w [<-|[<-|[<-|[]]]]; intuition discriminate.
Qed.

(* in sync and current: the update creates nothing whatever the strategy, the queue is not needed, and the direct
   merge (octopus, or integration branch first) creates nothing and lands on the integration tips *)
Example gate_example_current :
  check_in_sync gate_ex_current 10 (10 :: map fst gate_ex_wds) = true /\
  update_integration [Octopus; Octopus] gate_ex_current 10 gate_ex_wds = Some gate_ex_current /\
  update_integration [Consecutive; ConsecutiveRev] gate_ex_current 10 gate_ex_wds = Some gate_ex_current /\
  is_needed true true false false gate_ex_current 10 1 ((10, 1) :: gate_ex_wds) = false /\
  is_needed true false false false gate_ex_current 10 1 ((10, 1) :: gate_ex_wds) = true /\
  is_needed true true false true gate_ex_current 10 1 ((10, 1) :: gate_ex_wds) = true /\
  is_needed false true false false gate_ex_current 10 1 ((10, 1) :: gate_ex_wds) = false /\
  match merge_integration [ConsecutiveRev; Octopus] gate_ex_current ((1, 10) :: map swap gate_ex_wds) with
  | Some c1 => length (st c1) = 7 /\ lookup (refs c1) 1 = Some 4 /\ lookup (refs c1) 2 = Some 5 /\
               lookup (refs c1) 3 = Some 6
  | None => False
  end.
Proof. vm_compute. repeat split. Qed.

(* the same through the theorems: their hypotheses hold of this input *)
Example gate_example_current_thm :
  exists c', merge_integration [ConsecutiveRev; Octopus] gate_ex_current ((1, 10) :: map swap gate_ex_wds) = Some c' /\
             st c' = st gate_ex_current /\ lookup (refs c') 1 = Some 4 /\
             (forall w d, In (w, d) gate_ex_wds -> lookup (refs c') d = lookup (refs gate_ex_current) w).
Proof.
  destruct gate_ex_direct_names as [ND Dis].
  destruct (skip_queue_direct_merge [ConsecutiveRev; Octopus] true false false gate_ex_current 10 1 gate_ex_wds
              gate_ex_current_wf ND Dis) as (c' & R & S & L1 & Lw & _).
  - repeat constructor.
  - reflexivity.
  - vm_compute. reflexivity.
  - vm_compute. reflexivity.
  - exists c'. split; [exact R|]. split; [exact S|]. split; [exact L1 | exact Lw].
Qed.

(* targets 2 and 3 moved (another pull request was merged): the integration branches are still in sync with each
   other but behind their targets: is_needed answers True; the update creates the two commits 9 and 10, which did
   not exist (the old store has 9 commits); with every old commit SUCCESSFUL in the build table, the vector the
   build gate reads afterwards is [SUCCESSFUL; NOTSTARTED; NOTSTARTED] (true = built, false = nothing reported) *)
Example gate_example_moved :
  check_in_sync gate_ex_moved 10 (10 :: map fst gate_ex_wds) = true /\
  is_needed true true false false gate_ex_moved 10 1 ((10, 1) :: gate_ex_wds) = true /\
  match update_integration [Octopus; Octopus] gate_ex_moved 10 gate_ex_wds with
  | Some c1 => length (st gate_ex_moved) = 9 /\ length (st c1) = 11 /\
               lookup (refs c1) 12 = Some 9 /\ lookup (refs c1) 13 = Some 10 /\
               lookup (refs c1) 10 = Some 4 /\ lookup (refs c1) 2 = Some 7 /\
               check_in_sync c1 10 (10 :: map fst gate_ex_wds) = true /\
               some_wbranch_behind c1 gate_ex_wds = false /\
               statuses_read false (fun x => if x <? 9 then Some true else None) c1 [10; 12; 13]
                 = Some [true; false; false]
  | None => False
  end.
Proof. vm_compute. repeat split. Qed.

Example gate_example_moved_thm :
  forall c1, update_integration [Octopus; Octopus] gate_ex_moved 10 gate_ex_wds = Some c1 ->
  check_in_sync c1 10 (10 :: map fst gate_ex_wds) = true /\
  moves_exactly gate_ex_moved c1 10 gate_ex_wds /\
  forall ss, statuses_read false (fun x => if x <? 9 then Some true else None) c1 [10; 12; 13] = Some ss ->
             In false ss.
Proof.
  intros c1 H.
  assert (L10 : lookup (refs gate_ex_moved) 10 <> None) by (cbn; discriminate).
  destruct (update_establishes_sync _ _ _ _ _ gate_ex_moved_wf gate_ex_names_ok L10 H) as (S & _).
  split; [exact S|]. split; [exact (update_moves _ _ _ _ _ gate_ex_moved_wf gate_ex_names_ok H)|].
  assert (T : table_within (fun x => if x <? 9 then Some true else None) (st gate_ex_moved)).
  { intros x Hx. destruct (Nat.ltb_spec x 9) as [Lt|Ge]; [exact Lt | congruence]. }
  assert (L12 : lookup (refs c1) 12 = Some 9) by (vm_compute in H; injection H as <-; reflexivity).
  intros ss R. apply (statuses_read_fresh false _ (st gate_ex_moved) c1 [10; 12; 13] 12 9 T); [cbn; tauto | exact L12 | cbn; lia | exact R].
Qed.

(* a fast-forward: the integration branch 12 (tip 4) is an ancestor of its moved target (tip 5); the update moves it
   onto the existing commit 5 and creates nothing *)
Example gate_example_ff :
  let s := [mkCommit [] false; mkCommit [0] false; mkCommit [1] false; mkCommit [1] false;
            mkCommit [2; 3] true; mkCommit [4] false] in
  let c := mkClone s [(1, 1); (2, 5); (10, 3); (12, 4)] in
  match update_integration [Octopus] c 10 [(12, 2)] with
  | Some c1 => length (st c1) = 6 /\ lookup (refs c1) 12 = Some 5
  | None => False
  end.
Proof. vm_compute. repeat split. Qed.
