(* Stickiness of a SUCCESSFUL verdict under interleaving at the hosts' I/O points (Model/IoCache.v). *)
From Coq Require Import List String Bool.
Require Import BertE.Model.IoCache.
Import ListNotations.
Open Scope string_scope.
Open Scope list_scope.

Definition all_guarded : guards := {| g_suite := true; g_poll := true |}.
Definition green : option string := Some "SUCCESSFUL".

Lemma store_guarded_green s : store true green s = green.
Proof. reflexivity. Qed.

Lemma io_step_green st :
  io_step all_guarded green st = (green, match st with Event _ | SuiteEnd _ => None | _ => Some "SUCCESSFUL" end).
Proof. destruct st as [s | s | | [s|]]; reflexivity. Qed.

(* once the cell is SUCCESSFUL, no interleaving of events, check_suite writes, polls and late host answers changes
   it, and every poll that answers, answers SUCCESSFUL *)
Theorem io_green_is_sticky : forall l,
  fst (io_run all_guarded green l) = green /\
  forall a, In (Some a) (snd (io_run all_guarded green l)) -> a = "SUCCESSFUL".
Proof.
  induction l as [|st t IH]; cbn [io_run]; [split; [reflexivity | intros a []]|].
  rewrite io_step_green. destruct (io_run all_guarded green t) as [c' al]. cbn [fst snd] in *.
  split; [exact (proj1 IH)|]. intros a [H|H]; [|exact (proj2 IH a H)].
  destruct st; [discriminate H | discriminate H | |]; injection H as <-; reflexivity.
Qed.

Lemma io_run_fst_app g : forall l1 l2 c,
  fst (io_run g c (l1 ++ l2)) = fst (io_run g (fst (io_run g c l1)) l2).
Proof.
  induction l1 as [|x t IH]; intros l2 c; cbn [app io_run]; [reflexivity|].
  destruct (io_step g c x) as [c1 a1]. specialize (IH l2 c1).
  destruct (io_run g c1 (t ++ l2)) as [c2 al2]. destruct (io_run g c1 t) as [c3 al3]. exact IH.
Qed.

(* reaching SUCCESSFUL from any cell: after a step that stores SUCCESSFUL the theorem above applies *)
Corollary io_seen_green_stays : forall cell pre s post g,
  g = all_guarded ->
  fst (io_run g cell (pre ++ [Event s])) = green ->
  fst (io_run g cell (pre ++ Event s :: post)) = green.
Proof.
  intros cell pre s post g -> H. change (Event s :: post) with ([Event s] ++ post).
  rewrite app_assoc, io_run_fst_app, H. exact (proj1 (io_green_is_sticky post)).
Qed.

(* without the guard on the late answer of a poll the verdict is lost: the witness the interleaving stream found
   on the Bitbucket client before its repair *)
Example io_unguarded_poll_downgrades :
  fst (io_run {| g_suite := true; g_poll := false |} None [PollBegin; Event "SUCCESSFUL"; PollEnd (Some "INPROGRESS")])
  = Some "INPROGRESS".
Proof. reflexivity. Qed.

Example io_guarded_poll_keeps :
  io_run all_guarded None [PollBegin; Event "SUCCESSFUL"; PollEnd (Some "INPROGRESS"); PollBegin]
  = (green, [None; None; Some "SUCCESSFUL"; Some "SUCCESSFUL"]).
Proof. reflexivity. Qed.
