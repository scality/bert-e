(* Proofs for C18: the ten scanners of Model/Names.v, tried in the factory order of the code, recognise
   exactly the naming grammar of Spec/C18Spec.v; the classes are pairwise disjoint except
   Hotfix/LegacyHotfix; derived names parse back.

   The file has two parts after the facts of the code.  First the specification alone: its recogniser
   [spec_classify] against the grammar [is_kind] (up to [spec_classify_iff]).  Then the model against the
   recogniser.  Every scanner starts with a literal up to the first "/" (FeatureBranch: one of the prefixes),
   so a name is first cut there: [match_class_split] says what each scanner does with the two parts,
   [group_of] which classes are left to try for a given first part, and in which order.  The scanners only
   ever see the last part of a name through [chomp] (the "$" of the patterns), so they are compared with the
   recogniser run on [chomp s]: [classify_chomp].  The grammar itself never mentions a line feed.

   Generated/Facts_C18.v is rewritten from /repo on every run; the [*_pinned] lemmas, [flags_total],
   [prefixes_agree] and [factory_groups] are where a change there stops the build. *)
From Coq Require Import List String Ascii Bool Arith NArith Lia.
Require Import BertE.Base.Str BertE.Generated.Facts_C18 BertE.Model.Names BertE.Spec.C18Spec.
Import ListNotations.
Open Scope string_scope.

Lemma forallb_Forall {A} (p : A -> bool) l : forallb p l = true <-> Forall (fun x => p x = true) l.
Proof. rewrite forallb_forall, Forall_forall. reflexivity. Qed.

Lemma first_some_none {A B} (l : list A) (f : A -> option B) : (forall x, f x = None) -> first_some l f = None.
Proof. intro H. induction l as [|x r IH]; [reflexivity|]. cbn. rewrite (H x). exact IH. Qed.

Lemma first_some_in {A B} (l : list A) (f : A -> option B) y :
  first_some l f = Some y -> exists x, In x l /\ f x = Some y.
Proof.
  induction l as [|x t IH]; cbn; [discriminate|].
  destruct (f x) eqn:E; [intros [= <-]; exists x; auto|].
  intro H. destruct (IH H) as (z & Hz & Ez). exists z; auto.
Qed.

Lemma first_some_one {A B} (f : A -> option B) x : first_some [x] f = f x.
Proof. cbn. destruct (f x); reflexivity. Qed.

Lemma first_some_filter {A B} (p : A -> bool) (f g : A -> option B) l :
  (forall x, f x = if p x then g x else None) -> first_some l f = first_some (filter p l) g.
Proof.
  intro H. induction l as [|x r IH]; [reflexivity|]. cbn. rewrite (H x).
  destruct (p x); cbn; rewrite IH; reflexivity.
Qed.

Lemma class_of_name_name k : class_of_name (class_name k) = Some k.
Proof. destruct k; reflexivity. Qed.

Lemma bclass_eqb_eq a b : bclass_eqb a b = true <-> a = b.
Proof.
  unfold bclass_eqb. rewrite String.eqb_eq. split; [|intros ->; reflexivity].
  intro H. apply (f_equal class_of_name) in H. rewrite !class_of_name_name in H. injection H as H. exact H.
Qed.

(* every class name of branch_factory was understood, each of the ten classes is tried *)
Lemma factory_complete : map class_name factory = factory_order.
Proof. reflexivity. Qed.

Lemma in_factory_all k : In k factory.
Proof. remember factory as l eqn:F. vm_compute in F. subst l. destruct k; cbn; tauto. Qed.

Lemma flags_total k : flags_of k <> None.
Proof. destruct k; vm_compute; discriminate. Qed.

(* the prefixes of the code are the documented ones (as sets) *)
Lemma prefixes_agree p : mem_str p all_prefixes = mem_str p known_prefixes.
Proof.
  assert (H : forallb (fun q => mem_str q known_prefixes) all_prefixes &&
              forallb (fun q => mem_str q all_prefixes) known_prefixes = true) by reflexivity.
  apply andb_true_iff in H as [H1 H2]. rewrite forallb_forall in H1, H2.
  apply eq_true_iff_eq. rewrite !mem_str_In. split; intro Hp; apply mem_str_In; auto.
Qed.

Lemma int_keys_pinned : int_keys = ["major"; "minor"; "micro"; "hfrev"; "pr_id"].
Proof. reflexivity. Qed.
Lemma feature_upper_pinned : feature_upper_attrs = ["jira_issue_key"; "jira_project"].
Proof. reflexivity. Qed.
Lemma parent_rule_pinned : parent_branch_rule = ("IntegrationBranch", "feature_branch", "name").
Proof. reflexivity. Qed.
Lemma integration_instances_pinned : integration_instances = ["IntegrationBranch"].
Proof. reflexivity. Qed.

(* the named groups of each pattern are the attributes the corresponding scanner fills *)
Lemma groups_pinned : forall k g, class_has_group k g = mem_str g
  match k with
  | StabilizationBranch | HotfixBranch => ["version"; "major"; "minor"; "micro"]
  | DevelopmentBranch | ReleaseBranch => ["version"; "major"; "minor"]
  | QueueBranch => ["version"; "major"; "minor"; "micro"; "hfrev"]
  | FeatureBranch => ["feature_branch"; "prefix"; "label"; "jira_issue_key"; "jira_project"]
  | LegacyHotfixBranch | UserBranch => ["label"]
  | IntegrationBranch => ["version"; "major"; "minor"; "micro"; "hfrev"; "feature_branch"; "prefix";
                          "label"; "jira_issue_key"; "jira_project"]
  | QueueIntegrationBranch => ["pr_id"; "version"; "major"; "minor"; "micro"; "hfrev"; "feature_branch";
                               "prefix"; "label"; "jira_issue_key"; "jira_project"]
  end.
Proof. intros k g. destruct k; reflexivity. Qed.

Lemma version_join v cs :
  version v cs <-> (cs <> [] /\ (List.length cs <= 4)%nat /\ Forall number cs /\ v = join "." cs).
Proof.
  split.
  - intro H. destruct H; repeat split; try discriminate; repeat constructor; assumption.
  - intros (Hne & Hlen & Hall & ->).
    destruct cs as [|x [|y [|z [|n [|e r]]]]]; [contradiction | .. | cbn in Hlen; lia];
      repeat (apply Forall_cons_iff in Hall as [? Hall]); constructor; assumption.
Qed.

Lemma version_no_char v cs c :
  version v cs -> is_digit c = false -> c <> "."%char -> has_char c v = false.
Proof.
  intros H Hd Hc. apply version_join in H as (_ & _ & Hall & ->). apply join_no_char; [|exact Hc].
  eapply Forall_impl; [|exact Hall]. intros x Hx. apply is_num_no_char; assumption.
Qed.

Lemma version_no_slash v cs : version v cs -> has_char "/" v = false.
Proof. intro H. apply (version_no_char v cs "/" H); [reflexivity | discriminate]. Qed.

Lemma version_no_lf v cs : version v cs -> has_char LF v = false.
Proof. intro H. apply (version_no_char v cs LF H); [reflexivity | discriminate]. Qed.

Lemma spec_version_iff v cs : spec_version v = Some cs <-> version v cs.
Proof.
  unfold spec_version. rewrite version_join. split.
  - destruct (forallb is_num (split_char "." v)) eqn:F; [|discriminate]. cbn [andb].
    destruct (Nat.leb_spec (List.length (split_char "." v)) 4) as [L|L]; [|discriminate].
    intro H. injection H as <-. repeat split.
    + apply split_char_nonempty.
    + exact L.
    + apply forallb_Forall; exact F.
    + symmetry; apply join_split.
  - intros (Hne & Hlen & Hall & ->). rewrite split_join; [|exact Hne|].
    + apply forallb_Forall in Hall. rewrite Hall, (proj2 (Nat.leb_le _ _) Hlen). reflexivity.
    + eapply Forall_impl; [|exact Hall]. intros x Hx. apply is_num_no_char; [exact Hx | reflexivity].
Qed.

Lemma word_no_dash p : str_forall is_word p = true -> has_char "-" p = false.
Proof. intro H. apply (str_forall_no_char is_word); [exact H | reflexivity]. Qed.

Lemma no_digit_next_stops r : no_digit_next r <-> stops is_digit r = true.
Proof.
  destruct r as [|c t]; cbn; [tauto|]. rewrite negb_true_iff. tauto.
Qed.

Lemma spec_ticket_sound l key proj : spec_ticket l = Some (key, proj) ->
  exists num rest, l = proj ++ "-" ++ num ++ rest /\ word proj /\ number num /\ no_digit_next rest /\
                   key = proj ++ "-" ++ num.
Proof.
  unfold spec_ticket. destruct (split_first "-" l) as [[p r]|] eqn:E; [|discriminate].
  destruct (span is_digit r) as [num rest] eqn:S. intro H.
  destruct (negb (is_empty p) && str_forall is_word p && negb (is_empty num)) eqn:C; [|discriminate H].
  injection H as <- <-.
  apply andb_true_iff in C as [C Hn]. apply andb_true_iff in C as [Hp Hw].
  apply split_first_some in E as [-> _]. apply span_spec in S as (-> & Hd & Hs).
  exists num, rest. repeat split.
  - apply negb_true_iff, is_empty_false in Hp. exact Hp.
  - exact Hw.
  - unfold number, is_num. rewrite Hn, Hd. reflexivity.
  - apply no_digit_next_stops; exact Hs.
Qed.

(* without [no_digit_next] the recogniser still finds a ticket, with a longer number *)
Lemma spec_ticket_some proj num rest : word proj -> number num ->
  exists t, spec_ticket (proj ++ "-" ++ num ++ rest) = Some t /\
            (no_digit_next rest -> t = (proj ++ "-" ++ num, proj)).
Proof.
  intros [Hne Hw] Hnum. unfold spec_ticket.
  change (proj ++ "-" ++ num ++ rest) with (proj ++ String "-" (num ++ rest)).
  rewrite (split_first_app "-" proj (num ++ rest) (word_no_dash proj Hw)).
  apply is_empty_false in Hne. rewrite Hne, Hw. cbn [negb andb].
  destruct (span is_digit (num ++ rest)) as [n2 r2] eqn:S.
  assert (Hn2 : is_empty n2 = false).
  { unfold number, is_num in Hnum. destruct num as [|c n']; [discriminate Hnum|].
    cbn in Hnum. apply andb_true_iff in Hnum as [Hc _]. cbn in S. rewrite Hc in S.
    destruct (span is_digit (n' ++ rest)). injection S as <- _. reflexivity. }
  rewrite Hn2. cbn [negb]. eexists. split; [reflexivity|].
  intro Hr. apply no_digit_next_stops in Hr.
  rewrite (span_app is_digit num rest (is_num_digits num Hnum) Hr) in S. injection S as <- _. reflexivity.
Qed.

Lemma ticket_iff l t : ticket l t <-> spec_ticket l = t.
Proof.
  split.
  - intro H. destruct H as [proj num rest Hw Hn Hr|l Hnone].
    + destruct (spec_ticket_some proj num rest Hw Hn) as (t' & E & Ht). rewrite E, (Ht Hr). reflexivity.
    + destruct (spec_ticket l) as [[key proj]|] eqn:E; [|reflexivity].
      apply spec_ticket_sound in E as (num & rest & -> & Hw & Hn & _ & _).
      contradiction (Hnone proj num rest Hw Hn eq_refl).
  - intros <-. destruct (spec_ticket l) as [[key proj]|] eqn:E.
    + apply spec_ticket_sound in E as (num & rest & -> & Hw & Hn & Hr & ->). constructor; assumption.
    + constructor. intros proj num rest Hw Hn ->.
      destruct (spec_ticket_some proj num rest Hw Hn) as (t' & E' & _). rewrite E in E'. discriminate E'.
Qed.

Definition reserved_heads : list string := ["development"; "stabilization"; "release"; "hotfix"; "user"; "w"; "q"].

Lemma known_prefix_facts p : In p known_prefixes ->
  has_char "/" p = false /\ has_char LF p = false /\ forallb (fun h => negb (p =? h)) reserved_heads = true.
Proof.
  assert (H : forallb (fun p => negb (has_char "/" p) && negb (has_char LF p) &&
                               forallb (fun h => negb (p =? h)) reserved_heads) known_prefixes = true) by reflexivity.
  rewrite forallb_forall in H. intro Hp. apply H in Hp.
  apply andb_true_iff in Hp as [Hp N]. apply andb_true_iff in Hp as [H1 H2]. apply negb_true_iff in H1, H2. auto.
Qed.

Lemma spec_source_iff s p l t : spec_source s = Some (p, l, t) <-> source s p l t.
Proof.
  unfold spec_source. split.
  - destruct (split_first "/" s) as [[p0 l0]|] eqn:E; [|discriminate]. intro H.
    destruct (mem_str p0 known_prefixes && negb (is_empty l0) && negb (has_char LF l0)) eqn:C; [|discriminate H].
    injection H as <- <- <-.
    apply andb_true_iff in C as [C Hlf]. apply andb_true_iff in C as [Hm Hne].
    apply split_first_some in E as [-> _]. constructor.
    + apply mem_str_In; exact Hm.
    + split; [apply is_empty_false, negb_true_iff; exact Hne | apply negb_true_iff; exact Hlf].
    + apply ticket_iff; reflexivity.
  - intros [p' l' t' Hp [Hne Hlf] Ht]. cbn [append].
    rewrite (split_first_app "/" p' l' (proj1 (known_prefix_facts p' Hp))).
    apply mem_str_In in Hp. apply is_empty_false in Hne. apply ticket_iff in Ht.
    rewrite Hp, Hne, Hlf, Ht. reflexivity.
Qed.

Lemma source_no_lf s p l t : source s p l t -> has_char LF s = false.
Proof.
  intros [p' l' t' Hp [_ Hlf] _].
  rewrite !has_char_app, (proj1 (proj2 (known_prefix_facts p' Hp))), Hlf. reflexivity.
Qed.

Lemma spec_versioned_some k ok v a : spec_versioned k ok v = Some a ->
  exists cs, version v cs /\ ok (List.length cs) = true /\ a = info_versioned k v cs.
Proof.
  unfold spec_versioned. destruct (spec_version v) as [cs|] eqn:E; [|discriminate].
  destruct (ok (List.length cs)) eqn:O; [|discriminate]. intro H. injection H as <-.
  exists cs. split; [apply spec_version_iff; exact E | split; [exact O | reflexivity]].
Qed.

Lemma spec_versioned_complete k ok v cs : version v cs -> ok (List.length cs) = true ->
  spec_versioned k ok v = Some (info_versioned k v cs).
Proof.
  intros H O. unfold spec_versioned. apply spec_version_iff in H. rewrite H, O. reflexivity.
Qed.

Lemma spec_derived_some k pr r a : spec_derived k pr r = Some a ->
  exists v cs src p l t, r = v ++ "/" ++ src /\ version v cs /\ source src p l t /\
                         a = info_derived k pr v cs src p l t.
Proof.
  unfold spec_derived. destruct (split_first "/" r) as [[v src]|] eqn:E; [|discriminate].
  destruct (spec_version v) as [cs|] eqn:V; [|discriminate].
  destruct (spec_source src) as [[[p l] t]|] eqn:S; [|discriminate].
  intro H. injection H as <-. apply split_first_some in E as [-> _].
  exists v, cs, src, p, l, t. repeat split.
  - apply spec_version_iff; exact V.
  - apply spec_source_iff; exact S.
Qed.

Lemma spec_derived_complete k pr v cs src p l t : version v cs -> source src p l t ->
  spec_derived k pr (v ++ "/" ++ src) = Some (info_derived k pr v cs src p l t).
Proof.
  intros Hv Hs. unfold spec_derived. cbn [append].
  rewrite (split_first_app "/" v src (version_no_slash v cs Hv)).
  apply spec_version_iff in Hv. apply spec_source_iff in Hs. rewrite Hv, Hs. reflexivity.
Qed.

Theorem spec_classify_sound s a : spec_classify s = Some a -> is_kind s a.
Proof.
  unfold spec_classify. destruct (has_char LF s) eqn:Hlf; [discriminate|].
  destruct (split_first "/" s) as [[h rest]|] eqn:E; [|discriminate].
  destruct (split_first_no_char LF _ _ _ _ E Hlf) as [_ Hr]. apply split_first_some in E as [-> _].
  destruct (String.eqb_spec h "development") as [->|_].
  { intro H. apply spec_versioned_some in H as (cs & Hv & Hok & ->). apply Nat.leb_le in Hok.
    exact (K_development rest cs Hv Hok). }
  destruct (String.eqb_spec h "stabilization") as [->|_].
  { intro H. apply spec_versioned_some in H as (cs & Hv & Hok & ->). apply Nat.eqb_eq in Hok.
    exact (K_stabilization rest cs Hv Hok). }
  destruct (String.eqb_spec h "release") as [->|_].
  { intro H. apply spec_versioned_some in H as (cs & Hv & Hok & ->). apply Nat.eqb_eq in Hok.
    exact (K_release rest cs Hv Hok). }
  destruct (String.eqb_spec h "hotfix") as [->|_].
  { destruct (spec_versioned HotfixBranch (fun n => (n =? 3)%nat) rest) as [a0|] eqn:V.
    - intro H. injection H as <-. apply spec_versioned_some in V as (cs & Hv & Hok & ->).
      apply Nat.eqb_eq in Hok. exact (K_hotfix rest cs Hv Hok).
    - destruct (is_empty rest) eqn:Hne; [discriminate|]. intro H. injection H as <-.
      apply is_empty_false in Hne. apply (K_legacy_hotfix rest (conj Hne Hr)). intros cs Hv Hlen.
      rewrite (spec_versioned_complete HotfixBranch _ rest cs Hv) in V; [discriminate V|].
      rewrite Hlen. reflexivity. }
  destruct (String.eqb_spec h "user") as [->|_].
  { destruct (is_empty rest) eqn:Hne; [discriminate|]. intro H. injection H as <-.
    apply is_empty_false in Hne. exact (K_user rest (conj Hne Hr)). }
  destruct (String.eqb_spec h "w") as [->|_].
  { intro H. apply spec_derived_some in H as (v & cs & src & p & l & t & -> & Hv & Hs & ->).
    exact (K_integration v cs src p l t Hv Hs). }
  destruct (String.eqb_spec h "q") as [->|_].
  { destruct (split_first "/" rest) as [[h2 r2]|] eqn:E2.
    - destruct (String.eqb_spec h2 "w") as [->|_]; [|discriminate].
      destruct (split_first "/" r2) as [[pr r3]|] eqn:E3; [|discriminate].
      destruct (is_num pr) eqn:Hpr; [|discriminate]. intro H.
      apply spec_derived_some in H as (v & cs & src & p & l & t & -> & Hv & Hs & ->).
      apply split_first_some in E2 as [-> _]. apply split_first_some in E3 as [-> _].
      exact (K_queue_integration pr v cs src p l t Hpr Hv Hs).
    - intro H. apply spec_versioned_some in H as (cs & Hv & _ & ->).
      exact (K_queue rest cs Hv). }
  destruct (spec_source (h ++ String "/" rest)) as [[[p l] t]|] eqn:S; [|discriminate].
  intro H. injection H as <-. apply spec_source_iff in S. exact (K_feature _ p l t S).
Qed.

Lemma is_kind_no_lf s a : is_kind s a -> has_char LF s = false.
Proof.
  intro H. destruct H as [v cs Hv _|v cs Hv _|v cs Hv _|v cs Hv _|src p l t Hs|l [_ Hl]|l [_ Hl] _
                          |v cs src p l t Hv Hs|v cs Hv|pr v cs src p l t Hpr Hv Hs];
    rewrite ?has_char_app.
  1-4, 9: rewrite (version_no_lf v cs Hv); reflexivity.
  2-3: rewrite Hl; reflexivity.
  - exact (source_no_lf _ p l t Hs).
  - rewrite (version_no_lf v cs Hv), (source_no_lf _ p l t Hs). reflexivity.
  - rewrite (is_num_no_char LF pr Hpr eq_refl), (version_no_lf v cs Hv), (source_no_lf _ p l t Hs). reflexivity.
Qed.

Theorem spec_classify_complete s a : is_kind s a -> spec_classify s = Some a.
Proof.
  intro H. pose proof (is_kind_no_lf s a H) as Hlf. unfold spec_classify. rewrite Hlf. clear Hlf.
  destruct H as [v cs Hv Hl|v cs Hv Hl|v cs Hv Hl|v cs Hv Hl|src p l t Hs|l [Hne Hl]|l [Hne Hl] Hnv
                 |v cs src p l t Hv Hs|v cs Hv|pr v cs src p l t Hpr Hv Hs].
  - cbn. apply spec_versioned_complete; [exact Hv | apply Nat.leb_le; exact Hl].
  - cbn. apply spec_versioned_complete; [exact Hv | rewrite Hl; reflexivity].
  - cbn. rewrite (spec_versioned_complete HotfixBranch _ v cs Hv); [reflexivity | rewrite Hl; reflexivity].
  - cbn. apply spec_versioned_complete; [exact Hv | rewrite Hl; reflexivity].
  - pose proof (proj2 (spec_source_iff _ _ _ _) Hs) as S. destruct Hs as [p l t Hp _ _]. cbn [append] in *.
    destruct (known_prefix_facts p Hp) as (Hp1 & _ & N). rewrite S, (split_first_app "/" p l Hp1).
    cbn [forallb reserved_heads] in N. repeat (destruct (p =? _); [discriminate N|]). reflexivity.
  - cbn. apply is_empty_false in Hne. rewrite Hne. reflexivity.
  - cbn. destruct (spec_versioned HotfixBranch (fun n => (n =? 3)%nat) l) as [a0|] eqn:V.
    + apply spec_versioned_some in V as (cs & Hv & Hok & _). apply Nat.eqb_eq in Hok.
      contradiction (Hnv cs Hv Hok).
    + apply is_empty_false in Hne. rewrite Hne. reflexivity.
  - cbn. exact (spec_derived_complete IntegrationBranch None v cs src p l t Hv Hs).
  - cbn. rewrite (proj2 (split_first_none "/" v) (version_no_slash v cs Hv)).
    apply spec_versioned_complete; [exact Hv | reflexivity].
  - cbn. rewrite (split_first_app "/" pr _ (is_num_no_char "/" pr Hpr eq_refl)), Hpr.
    exact (spec_derived_complete QueueIntegrationBranch _ v cs src p l t Hv Hs).
Qed.

Theorem spec_classify_iff s a : spec_classify s = Some a <-> is_kind s a.
Proof. split; [apply spec_classify_sound | apply spec_classify_complete]. Qed.

Lemma parse_version_spec lo hi v : (hi <=? 4)%nat = true ->
  parse_version lo hi v =
  match spec_version v with
  | Some cs => if ((lo <=? List.length cs) && (List.length cs <=? hi))%nat then Some cs else None
  | None => None
  end.
Proof.
  intro Hhi. apply Nat.leb_le in Hhi. unfold parse_version, spec_version.
  destruct (forallb is_num (split_char "." v)); [|reflexivity]. cbn [andb].
  destruct (Nat.leb_spec (List.length (split_char "." v)) 4) as [L|L]; [reflexivity|].
  rewrite (proj2 (Nat.leb_gt _ hi)), andb_false_r by lia. reflexivity.
Qed.

Lemma parse_version_any v : parse_version 1 4 v = spec_version v.
Proof.
  unfold parse_version, spec_version. pose proof (split_char_nonempty "." v) as Hne.
  destruct (split_char "." v); [contradiction|]. cbn [List.length Nat.leb]. rewrite andb_true_r. reflexivity.
Qed.

(* by conversion: [comp] of the model is [nth_value] of the specification *)
Lemma mk_versioned_info k v cs : mk_versioned k v cs = info_versioned k v cs.
Proof. reflexivity. Qed.

Lemma mk_labelled_info k l : mk_labelled k l = info_labelled k l.
Proof. reflexivity. Qed.

(* the number of components is between 1 and 4 on both sides, so the two length tests need to agree only there *)
Lemma scan_versioned_spec k lo hi (ok : nat -> bool) r : (hi <=? 4)%nat = true ->
  forallb (fun n => Bool.eqb (ok n) ((lo <=? n) && (n <=? hi))%nat) [1; 2; 3; 4]%nat = true ->
  scan_versioned k "" lo hi r = spec_versioned k ok (chomp r).
Proof.
  intros Hhi Hok. unfold scan_versioned, spec_versioned. cbn [strip_prefix].
  rewrite (parse_version_spec lo hi _ Hhi).
  destruct (spec_version (chomp r)) as [cs|] eqn:E; [|reflexivity].
  replace (ok (List.length cs)) with ((lo <=? List.length cs) && (List.length cs <=? hi))%nat.
  - destruct (_ && _); [|reflexivity]. cbn [option_map]. rewrite mk_versioned_info. reflexivity.
  - symmetry. apply eqb_prop. rewrite forallb_forall in Hok. apply Hok.
    apply spec_version_iff in E. destruct E; cbn; auto 6.
Qed.

Lemma spec_versioned_slash k ok r h2 r2 :
  split_first "/" r = Some (h2, r2) -> spec_versioned k ok (chomp r) = None.
Proof.
  intro E. unfold spec_versioned. destruct (spec_version (chomp r)) as [cs|] eqn:V; [|reflexivity].
  apply spec_version_iff, version_no_slash, split_first_none in V.
  rewrite split_first_chomp, E in V by discriminate. discriminate V.
Qed.

(* the model scans the longest word run and then wants a dash; the specification splits at the first
   dash and wants a word before it: the same thing *)
Lemma scan_ticket_eq l : scan_ticket l = spec_ticket l.
Proof.
  unfold scan_ticket, spec_ticket.
  destruct (span is_word l) as [proj r1] eqn:S. apply span_spec in S as (-> & Hw & Hs).
  rewrite split_first_sapp, (proj2 (split_first_none "-" proj) (word_no_dash proj Hw)).
  destruct r1 as [|c r2]; [destruct (is_empty proj); reflexivity|]. cbn [split_first].
  destruct (c =? "-")%char.
  - rewrite sapp_nil_r, Hw. destruct (span is_digit r2) as [num rest].
    destruct (is_empty proj); [reflexivity|]. destruct (is_empty num); reflexivity.
  - cbn in Hs. apply negb_true_iff in Hs.
    destruct (split_first "-" r2) as [[x y]|]; [|destruct (is_empty proj); reflexivity].
    destruct (span is_digit y) as [num rest].
    rewrite str_forall_app. cbn [str_forall]. rewrite Hs, andb_false_r, andb_false_r.
    destruct (is_empty proj); reflexivity.
Qed.

(* the label is checked for line feeds on both sides, so this needs no hypothesis on [s] *)
Lemma scan_feature_spec s :
  scan_feature s = match spec_source (chomp s) with
                   | Some (p, l, t) => Some {| fp_prefix := p; fp_label := l; fp_ticket := t |}
                   | None => None
                   end.
Proof.
  unfold scan_feature, spec_source, scan_line. rewrite split_first_chomp by discriminate.
  destruct (split_first "/" s) as [[p rest]|]; [|reflexivity].
  rewrite prefixes_agree. destruct (mem_str p known_prefixes); [|reflexivity]. cbv zeta. cbn [andb].
  destruct (is_empty (chomp rest)); [reflexivity|]. destruct (has_char LF (chomp rest)); [reflexivity|].
  cbn. rewrite scan_ticket_eq. reflexivity.
Qed.

Lemma scan_labelled_spec k r : has_char LF (chomp r) = false ->
  scan_labelled k "" r = if is_empty (chomp r) then None else Some (info_labelled k (chomp r)).
Proof.
  intro H. unfold scan_labelled, scan_line. cbn [strip_prefix]. cbv zeta. rewrite H, orb_false_r.
  destruct (is_empty (chomp r)); [reflexivity|]. cbn [option_map]. rewrite mk_labelled_info. reflexivity.
Qed.

Definition head_test (k : bclass) (h : string) : bool :=
  match k with
  | StabilizationBranch => h =? "stabilization" | DevelopmentBranch => h =? "development"
  | ReleaseBranch => h =? "release" | QueueBranch | QueueIntegrationBranch => h =? "q"
  | FeatureBranch => mem_str h all_prefixes
  | HotfixBranch | LegacyHotfixBranch => h =? "hotfix"
  | IntegrationBranch => h =? "w" | UserBranch => h =? "user"
  end.

Definition tail_form (k : bclass) (h rest : string) : option branch_info :=
  match k with
  | StabilizationBranch | HotfixBranch => scan_versioned k "" 3 3 rest
  | DevelopmentBranch => scan_versioned k "" 1 2 rest
  | ReleaseBranch => scan_versioned k "" 2 2 rest
  | QueueBranch => scan_versioned k "" 1 4 rest
  | QueueIntegrationBranch =>
      match split_first "/" rest with
      | Some (h2, r2) =>
          if h2 =? "w" then
            match split_first "/" r2 with
            | Some (p, r3) => if is_num p then scan_integration_tail k (Some (dec_value p)) r3 else None
            | None => None
            end
          else None
      | None => None
      end
  | FeatureBranch =>
      option_map (mk_feature_like k None None true)
        match scan_line rest with
        | Some l => Some {| fp_prefix := h; fp_label := l; fp_ticket := scan_ticket l |}
        | None => None
        end
  | LegacyHotfixBranch | UserBranch => scan_labelled k "" rest
  | IntegrationBranch => scan_integration_tail k None rest
  end.

Lemma match_class_split k s :
  match_class k s = match split_first "/" s with
                    | Some (h, rest) => if head_test k h then tail_form k h rest else None
                    | None => None
                    end.
Proof.
  destruct k; cbn [match_class head_test tail_form]; unfold scan_versioned, scan_labelled.
  - exact (strip_head_bind "/" "stabilization" "" s _ eq_refl).
  - exact (strip_head_bind "/" "development" "" s _ eq_refl).
  - exact (strip_head_bind "/" "release" "" s _ eq_refl).
  - exact (strip_head_bind "/" "q" "" s _ eq_refl).
  - rewrite (strip_head_bind "/" "q" "w/" s _ eq_refl). destruct (split_first "/" s) as [[h rest]|]; [|reflexivity].
    destruct (h =? "q"); [|reflexivity]. exact (strip_head_bind "/" "w" "" rest _ eq_refl).
  - unfold scan_feature. destruct (split_first "/" s) as [[h rest]|]; [|reflexivity].
    destruct (mem_str h all_prefixes); reflexivity.
  - exact (strip_head_bind "/" "hotfix" "" s _ eq_refl).
  - exact (strip_head_bind "/" "hotfix" "" s _ eq_refl).
  - exact (strip_head_bind "/" "w" "" s _ eq_refl).
  - exact (strip_head_bind "/" "user" "" s _ eq_refl).
Qed.

Lemma match_class_inv k s a : match_class k s = Some a ->
  exists h rest, split_first "/" s = Some (h, rest) /\ head_test k h = true /\ tail_form k h rest = Some a.
Proof.
  rewrite match_class_split. destruct (split_first "/" s) as [[h rest]|]; [|discriminate].
  destruct (head_test k h) eqn:T; [|discriminate]. intro H. exists h, rest. auto.
Qed.

(* the cases are in the order of [spec_classify], so that [classify_chomp] takes both apart together *)
Definition group_of (h : string) : list bclass :=
  if h =? "development" then [DevelopmentBranch]
  else if h =? "stabilization" then [StabilizationBranch]
  else if h =? "release" then [ReleaseBranch]
  else if h =? "hotfix" then [HotfixBranch; LegacyHotfixBranch]
  else if h =? "user" then [UserBranch]
  else if h =? "w" then [IntegrationBranch]
  else if h =? "q" then [QueueBranch; QueueIntegrationBranch]
  else if mem_str h all_prefixes then [FeatureBranch] else [].

(* all that the order of branch_factory decides: HotfixBranch is tried before LegacyHotfixBranch
   (and QueueBranch before QueueIntegrationBranch, which never accept the same name); the list is
   evaluated once, and any order with these two properties would do *)
Lemma factory_groups h : filter (fun k => head_test k h) factory = group_of h.
Proof.
  remember factory as l eqn:F. vm_compute in F. subst l. unfold group_of.
  destruct (String.eqb_spec h "development") as [->|N1]; [reflexivity|].
  destruct (String.eqb_spec h "stabilization") as [->|N2]; [reflexivity|].
  destruct (String.eqb_spec h "release") as [->|N3]; [reflexivity|].
  destruct (String.eqb_spec h "hotfix") as [->|N4]; [reflexivity|].
  destruct (String.eqb_spec h "user") as [->|N5]; [reflexivity|].
  destruct (String.eqb_spec h "w") as [->|N6]; [reflexivity|].
  destruct (String.eqb_spec h "q") as [->|N7]; [reflexivity|].
  apply String.eqb_neq in N1, N2, N3, N4, N5, N6, N7.
  rewrite (filter_ext _ (fun k => match k with FeatureBranch => mem_str h all_prefixes | _ => false end)).
  - destruct (mem_str h all_prefixes); reflexivity.
  - intros []; cbn [head_test]; assumption || reflexivity.
Qed.

Lemma In_group k h : head_test k h = true -> In k (group_of h).
Proof. intro H. rewrite <- factory_groups. apply filter_In. split; [apply in_factory_all | exact H]. Qed.

Definition group_shape (g : list bclass) : Prop :=
  (exists k, g = [k]) \/ g = [] \/ g = [HotfixBranch; LegacyHotfixBranch] \/ g = [QueueBranch; QueueIntegrationBranch].

Lemma group_cases h : group_shape (group_of h).
Proof.
  unfold group_of. repeat (destruct (h =? _); [unfold group_shape; eauto|]).
  destruct (mem_str h all_prefixes); unfold group_shape; eauto.
Qed.

Lemma classify_split s :
  classify s = match split_first "/" s with
               | Some (h, rest) => first_some (group_of h) (fun k => tail_form k h rest)
               | None => None
               end.
Proof.
  unfold classify. destruct (split_first "/" s) as [[h rest]|] eqn:E.
  - rewrite <- factory_groups. apply first_some_filter. intro k. rewrite match_class_split, E. reflexivity.
  - apply first_some_none. intro k. rewrite match_class_split, E. reflexivity.
Qed.

Lemma feature_like_derived k pr v cs src p l t : source src p l t ->
  mk_feature_like k pr (Some (v, cs)) false {| fp_prefix := p; fp_label := l; fp_ticket := t |} =
  info_derived k pr v cs src p l t.
Proof. intros [p' l' [[key proj]|] _ _ _]; reflexivity. Qed.

Lemma feature_like_feature s p l t : source s p l t ->
  mk_feature_like FeatureBranch None None true {| fp_prefix := p; fp_label := l; fp_ticket := t |} =
  info_feature s p l t.
Proof. intros [p' l' [[key proj]|] _ _ _]; reflexivity. Qed.

Lemma integration_tail_spec k pr r : scan_integration_tail k pr r = spec_derived k pr (chomp r).
Proof.
  unfold scan_integration_tail, spec_derived. rewrite split_first_chomp by discriminate.
  destruct (split_first "/" r) as [[v src]|]; [|reflexivity].
  rewrite parse_version_any, scan_feature_spec.
  destruct (spec_version v) as [cs|]; [|reflexivity].
  destruct (spec_source (chomp src)) as [[[p l] t]|] eqn:S; [|reflexivity].
  apply spec_source_iff in S. rewrite (feature_like_derived k pr v cs _ p l t S). reflexivity.
Qed.

Theorem classify_chomp s : has_char LF (chomp s) = false -> classify s = spec_classify (chomp s).
Proof.
  intro Hlf. unfold spec_classify. rewrite Hlf, classify_split.
  pose proof (split_first_chomp "/" s ltac:(discriminate)) as E. rewrite E.
  destruct (split_first "/" s) as [[h rest]|] eqn:E0; [|reflexivity].
  destruct (split_first_no_char LF _ _ _ _ E Hlf) as [_ Hr]. unfold group_of.
  destruct (h =? "development"). { rewrite first_some_one. apply scan_versioned_spec; reflexivity. }
  destruct (h =? "stabilization"). { rewrite first_some_one. apply scan_versioned_spec; reflexivity. }
  destruct (h =? "release"). { rewrite first_some_one. apply scan_versioned_spec; reflexivity. }
  destruct (h =? "hotfix").
  { cbn [first_some tail_form].
    rewrite (scan_versioned_spec _ 3 3 (fun n => n =? 3)%nat), (scan_labelled_spec _ _ Hr) by reflexivity.
    destruct (spec_versioned _ _ _); [reflexivity|]. destruct (is_empty (chomp rest)); reflexivity. }
  destruct (h =? "user"). { rewrite first_some_one. apply scan_labelled_spec; exact Hr. }
  destruct (h =? "w"). { rewrite first_some_one. apply integration_tail_spec. }
  destruct (h =? "q").
  { cbn [first_some tail_form]. rewrite (scan_versioned_spec _ 1 4 (fun _ => true)) by reflexivity.
    rewrite split_first_chomp by discriminate. destruct (split_first "/" rest) as [[h2 r2]|] eqn:E2.
    - rewrite (spec_versioned_slash _ _ _ _ _ E2). destruct (h2 =? "w"); [|reflexivity].
      rewrite split_first_chomp by discriminate. destruct (split_first "/" r2) as [[pr r3]|]; [|reflexivity].
      destruct (is_num pr); [|reflexivity]. rewrite integration_tail_spec.
      destruct (spec_derived _ _ _); reflexivity.
    - destruct (spec_versioned _ _ _); reflexivity. }
  transitivity (match_class FeatureBranch s).
  { rewrite match_class_split, E0. cbn [head_test]. destruct (mem_str h all_prefixes); [|reflexivity].
    apply (first_some_one (fun k => tail_form k h rest)). }
  cbn [match_class]. rewrite scan_feature_spec.
  destruct (spec_source (chomp s)) as [[[p l] t]|] eqn:S; [|reflexivity].
  apply spec_source_iff in S. cbn [option_map]. rewrite (feature_like_feature _ p l t S). reflexivity.
Qed.

Theorem classify_spec s : has_char LF s = false -> classify s = spec_classify s.
Proof. intro H. pose proof (classify_chomp s) as C. rewrite (chomp_no_lf s H) in C. exact (C H). Qed.

Theorem classify_iff_grammar s a : has_char LF s = false -> (classify s = Some a <-> is_kind s a).
Proof. intro Hlf. rewrite (classify_spec s Hlf). apply spec_classify_iff. Qed.

(* q/<version> and q/w/... cannot both accept: a version does not cross a "/" *)
Lemma queue_not_qi h rest a b :
  tail_form QueueBranch h rest = Some a -> tail_form QueueIntegrationBranch h rest = Some b -> False.
Proof.
  cbn [tail_form]. intros Ha Hb. destruct (split_first "/" rest) as [[h2 r2]|] eqn:E; [|discriminate Hb].
  rewrite (scan_versioned_spec _ 1 4 (fun _ => true)), (spec_versioned_slash _ _ _ _ _ E) in Ha by reflexivity.
  discriminate Ha.
Qed.

Theorem classes_disjoint s k1 k2 a1 a2 :
  match_class k1 s = Some a1 -> match_class k2 s = Some a2 ->
  k1 = k2 \/ (k1 = HotfixBranch /\ k2 = LegacyHotfixBranch) \/ (k1 = LegacyHotfixBranch /\ k2 = HotfixBranch).
Proof.
  intros H1 H2. apply match_class_inv in H1 as (h & rest & E & I1 & T1), H2 as (h' & rest' & E' & I2 & T2).
  rewrite E in E'. injection E' as <- <-. apply In_group in I1, I2.
  destruct (group_cases h) as [[k G]|[G|[G|G]]]; rewrite G in I1, I2; cbn [In] in I1, I2.
  - destruct I1 as [<-|[]], I2 as [<-|[]]. left; reflexivity.
  - destruct I1.
  - destruct I1 as [<-|[<-|[]]], I2 as [<-|[<-|[]]]; auto.
  - destruct I1 as [<-|[<-|[]]], I2 as [<-|[<-|[]]]; auto; exfalso; eauto using queue_not_qi.
Qed.

Corollary classify_is_the_match s k a : match_class k s = Some a ->
  classify s = Some a \/ (k = LegacyHotfixBranch /\ exists b, classify s = Some b /\ bi_class b = HotfixBranch
                                                       /\ match_class HotfixBranch s = Some b).
Proof.
  intro H. apply match_class_inv in H as (h & rest & E & I' & T).
  rewrite classify_split, E. pose proof (In_group _ _ I') as I.
  destruct (group_cases h) as [[k0 G]|[G|[G|G]]]; rewrite G in *; cbn [In first_some] in *.
  - destruct I as [<-|[]]. rewrite T. left; reflexivity.
  - destruct I.
  - destruct I as [<-|[<-|[]]]; [rewrite T; left; reflexivity|].
    destruct (tail_form HotfixBranch h rest) as [b|] eqn:Tb; [|rewrite T; left; reflexivity].
    right. split; [reflexivity|]. exists b. split; [reflexivity|]. split.
    + cbn in Tb. destruct (parse_version 3 3 (chomp rest)); [|discriminate Tb]. injection Tb as <-. reflexivity.
    + (* the two classes have the same literal, so [I'] is also the head test of HotfixBranch *)
      rewrite match_class_split, E. cbn [head_test] in I' |- *. rewrite I'. exact Tb.
  - destruct I as [<-|[<-|[]]]; [rewrite T; left; reflexivity|].
    destruct (tail_form QueueBranch h rest) as [b|] eqn:Tb; [destruct (queue_not_qi _ _ _ _ Tb T)|].
    rewrite T. left; reflexivity.
Qed.

Lemma flags_iff k :
  (can_be_destination k = true <-> destination_kind k) /\
  (cascade_consumer k = true <-> destination_kind k) /\
  (cascade_producer k = true <-> k = FeatureBranch \/ k = DevelopmentBranch \/ k = StabilizationBranch).
Proof.
  unfold destination_kind. repeat split.
  1, 3, 5: destruct k; intro H; try (vm_compute in H; discriminate H); auto.
  all: intros [->|[->| ->]]; reflexivity.
Qed.

Lemma destination_allow_prefixes k : destination_kind k -> allow_prefixes k = Some all_prefixes.
Proof. intros [->|[->| ->]]; reflexivity. Qed.

Lemma ticketless_never k : allow_ticketless_pr k = false.
Proof. destruct k; reflexivity. Qed.

Definition valid_version (v : string) : Prop := exists cs, version v cs.
Definition valid_source (src : string) : Prop := exists p l t, source src p l t.

Lemma print_w_eq v src : print_w v src = Some ("w/" ++ v ++ "/" ++ src).
Proof. unfold print_w, render. cbn. rewrite sapp_nil_r. reflexivity. Qed.

Lemma print_q_eq v : print_q v = Some ("q/" ++ v).
Proof. unfold print_q, render. cbn. rewrite sapp_nil_r. reflexivity. Qed.

Lemma print_qw_eq pr v src : print_qw pr v src = Some ("q/w/" ++ print_N pr ++ "/" ++ v ++ "/" ++ src).
Proof. unfold print_qw, render. cbn. rewrite sapp_nil_r. reflexivity. Qed.

Lemma classify_of_kind s a : is_kind s a -> classify s = Some a.
Proof. intro H. apply classify_iff_grammar; [exact (is_kind_no_lf s a H) | exact H]. Qed.

Theorem roundtrip_exact pr v cs src p l t : version v cs -> source src p l t ->
  (exists n, print_w v src = Some n /\
             classify n = Some (info_derived IntegrationBranch None v cs src p l t)) /\
  (exists n, print_qw pr v src = Some n /\
             classify n = Some (info_derived QueueIntegrationBranch (Some pr) v cs src p l t)) /\
  (exists n, print_q v = Some n /\ classify n = Some (info_versioned QueueBranch v cs)).
Proof.
  intros Hv Hs. rewrite print_w_eq, print_qw_eq, print_q_eq.
  repeat split; eexists; (split; [reflexivity|]); apply classify_of_kind.
  - exact (K_integration v cs src p l t Hv Hs).
  - destruct (print_N_spec pr) as [Hn Hval].
    pose proof (K_queue_integration (print_N pr) v cs src p l t Hn Hv Hs) as K. rewrite Hval in K. exact K.
  - exact (K_queue v cs Hv).
Qed.

Theorem roundtrip pr v src : valid_version v -> valid_source src ->
  (exists n a, print_w v src = Some n /\ classify n = Some a /\ roundtrip_w a v src) /\
  (exists n a, print_qw pr v src = Some n /\ classify n = Some a /\ roundtrip_qw a pr v src) /\
  (exists n a, print_q v = Some n /\ classify n = Some a /\ roundtrip_q a v).
Proof.
  intros [cs Hv] (p & l & t & Hs).
  destruct (roundtrip_exact pr v cs src p l t Hv Hs) as ((n1 & P1 & C1) & (n2 & P2 & C2) & (n3 & P3 & C3)).
  repeat split.
  - exists n1. eexists. split; [exact P1|]. split; [exact C1|]. repeat split.
  - exists n2. eexists. split; [exact P2|]. split; [exact C2|]. repeat split.
  - exists n3. eexists. split; [exact P3|]. split; [exact C3|]. repeat split.
Qed.

Theorem commit_redirect v src : valid_version v -> valid_source src ->
  exists n, print_w v src = Some n /\ get_parent_branch n = Some src.
Proof.
  intros [cs Hv] (p & l & t & Hs).
  destruct (roundtrip_exact 0 v cs src p l t Hv Hs) as ((n & P & C) & _).
  exists n. split; [exact P|]. unfold get_parent_branch. rewrite C. reflexivity.
Qed.

Lemma parent_of_other s a : classify s = Some a -> bi_class a <> IntegrationBranch ->
  get_parent_branch s = Some s.
Proof.
  intros C K. unfold get_parent_branch. rewrite C.
  destruct (bi_class a); try reflexivity. contradiction K; reflexivity.
Qed.

Example ex_version : version "10.0.3.12" ["10"; "0"; "3"; "12"].
Proof. apply (V4 "10" "0" "3" "12"); reflexivity. Qed.

Example ex_source :
  source "feature/RING-123-w/5.1/bugfix/x.2" "feature" "RING-123-w/5.1/bugfix/x.2" (Some ("RING-123", "RING")).
Proof. apply spec_source_iff. vm_compute. reflexivity. Qed.

Example ex_classify_w :
  option_map (fun a => (bi_class a, bi_version a, bi_micro a, bi_feature_branch a, bi_jira_issue_key a))
             (classify "w/007.1.3/bugfix/ring-12_b/w/5.1/x") =
  Some (IntegrationBranch, Some "007.1.3", Some 3%N, Some "bugfix/ring-12_b/w/5.1/x", Some "ring-12").
Proof. vm_compute. reflexivity. Qed.

Example ex_classify_feature_upper :
  option_map (fun a => (bi_class a, bi_prefix a, bi_jira_issue_key a, bi_jira_project a)) (classify "bug/ring_x-12-fix") =
  Some (FeatureBranch, Some "bug", Some "RING_X-12", Some "RING_X").
Proof. vm_compute. reflexivity. Qed.

Example ex_overlap :
  match_class HotfixBranch "hotfix/4.3.18" <> None /\ match_class LegacyHotfixBranch "hotfix/4.3.18" <> None /\
  option_map bi_class (classify "hotfix/4.3.18") = Some HotfixBranch /\
  option_map bi_class (classify "hotfix/4.3.18.1") = Some LegacyHotfixBranch.
Proof. vm_compute. repeat split; discriminate. Qed.

Example ex_rejects :
  classify "development/4." = None /\ classify "q/1.2.3.4.5" = None /\ classify "bugfix/" = None /\
  classify "w/5.1/user/x" = None /\ classify "Bugfix/x" = None /\ classify "tmp/x" = None /\ classify "" = None.
Proof. vm_compute. repeat split. Qed.

Example ex_roundtrip_qw :
  exists n, print_qw 1234 "10.0.3.12" "feature/RING-123-w/5.1/bugfix/x.2" = Some n /\
            option_map (fun a => (bi_pr_id a, bi_version a, bi_hfrev a, bi_feature_branch a)) (classify n) =
            Some (Some 1234%N, Some "10.0.3.12", Some 12%N, Some "feature/RING-123-w/5.1/bugfix/x.2").
Proof. exists "q/w/1234/10.0.3.12/feature/RING-123-w/5.1/bugfix/x.2". split; vm_compute; reflexivity. Qed.

Example ex_trailing_lf : option_map bi_class (classify ("development/4.3" ++ String LF "")) = Some DevelopmentBranch.
Proof. vm_compute. reflexivity. Qed.

Example ex_redirect : get_parent_branch "w/5.1/bugfix/w/4.3/feature/y" = Some "bugfix/w/4.3/feature/y".
Proof. vm_compute. reflexivity. Qed.

(* Observation (reported, not part of the statement): development and stabilization branches are cascade
   producers for the code, yet no integration or queue name can be derived from them. *)
Example ex_producer_without_derived_name :
  is_cascade_producer "development/4.3" = Some true /\ is_cascade_producer "stabilization/4.3.1" = Some true /\
  (exists n, print_w "5.1" "development/4.3" = Some n /\ classify n = None) /\
  (exists n, print_qw 7 "5.1" "development/4.3" = Some n /\ classify n = None).
Proof.
  (* the witnesses are given: with an evar in their place, [classify] would be normalised on a variable and
     the instantiated goal converted by the ordinary machine, which takes minutes *)
  split; [|split; [|split; [exists "w/5.1/development/4.3" | exists "q/w/7/5.1/development/4.3"]; split]];
    vm_compute; reflexivity.
Qed.
