(* C02: a changeset lands on all of its target branches or none, even across crashes.
   Publication lists (Model/Publish.v) under every fault; the merge chain of Model/Flow.v; what
   QueueCollection.validate (Model/QueueValid.v) says about the states a non-atomic queue push can leave. *)
From Coq Require Import List Bool Arith Lia.
Require Import BertE.Base.Lists BertE.Generated.Facts_C02 BertE.Model.Git BertE.Model.Flow BertE.Model.Publish BertE.Model.QueueValid
               BertE.Spec.C02Spec BertE.Proofs.GitProofs BertE.Proofs.FlowProofs BertE.Proofs.C08Proofs.
Import ListNotations.

Lemma c02_del_names_untouched names : forall r n, ~ In n names -> lookup (del_names r names) n = lookup r n.
Proof.
  induction names as [|a t IH]; intros r n Hn; [reflexivity|].
  unfold del_names. cbn [fold_left]. fold (del_names (remove r a) t).
  rewrite IH by (intro Hin; apply Hn; right; exact Hin).
  apply lookup_remove_neq. intro; subst; apply Hn; left; reflexivity.
Qed.

Lemma c02_without_incl ref names n : In n (without ref names) -> In n names.
Proof. unfold without. intro H. apply filter_In in H. tauto. Qed.

(* a named push publishes its names one by one, or (atomic and one of them refused) nothing *)
Lemma c02_step_names s r local names :
  fst (step s r (PNames local names)) = push_names s r local names \/ fst (step s r (PNames local names)) = r.
Proof.
  cbn [step]. cbv zeta. destruct named_push_atomic; [|left; reflexivity].
  match goal with |- context [if ?b then _ else _] => destruct b end; [left | right]; reflexivity.
Qed.

Lemma c02_step_untouched s r o n :
  is_pall o = false -> ~ In n (named_of o) -> lookup (fst (step s r o)) n = lookup r n.
Proof.
  intros P Hn. destruct o as [local names|names|local deleted|]; [| | discriminate P | reflexivity].
  - destruct (c02_step_names s r local names) as [-> | ->]; [apply push_names_untouched; exact Hn | reflexivity].
  - apply c02_del_names_untouched. exact Hn.
Qed.

Lemma c02_rejected_untouched s r o ref n :
  ~ In n (named_of o) -> lookup (step_rejected s r o ref) n = lookup r n.
Proof.
  intro Hn. destruct o as [local names|names|local deleted|]; cbn [step_rejected named_of] in *.
  - destruct named_push_atomic; [reflexivity|].
    apply push_names_untouched. intro H. apply Hn. exact (c02_without_incl _ _ _ H).
  - apply c02_del_names_untouched. intro H. apply Hn. exact (c02_without_incl _ _ _ H).
  - reflexivity.
  - reflexivity.
Qed.

Lemma c02_exec_cases s f i r o :
  exec_one s f i r o = normal s r o \/
  exists r', exec_one s f i r o = Stop r' /\
             (r' = r \/ r' = fst (step s r o) \/ exists ref, r' = step_rejected s r o ref).
Proof.
  destruct f as [|k|k|k ref]; cbn [exec_one]; [left; reflexivity | | |].
  - destruct (Nat.eqb i k); [right; exists r; auto | left; reflexivity].
  - destruct (Nat.eqb i k); [right; exists (fst (step s r o)); auto | left; reflexivity].
  - destruct (Nat.leb k i && mentions r o ref); [right; exists (step_rejected s r o ref); eauto | left; reflexivity].
Qed.

Definition c02_vstate (v : verdict) : refmap := match v with Stop r => r | Go r => r end.

Lemma c02_normal_state s r o : c02_vstate (normal s r o) = fst (step s r o).
Proof. unfold normal. destruct (snd (step s r o)); reflexivity. Qed.

Lemma c02_exec_untouched s f i r o n :
  is_pall o = false -> ~ In n (named_of o) -> lookup (c02_vstate (exec_one s f i r o)) n = lookup r n.
Proof.
  intros P Hn. destruct (c02_exec_cases s f i r o) as [E|(r' & E & [->|[->|[ref ->]]])]; rewrite E; cbn [c02_vstate].
  - rewrite c02_normal_state. apply c02_step_untouched; assumption.
  - reflexivity.
  - apply c02_step_untouched; assumption.
  - apply c02_rejected_untouched; assumption.
Qed.

Lemma c02_count_cons o l : count_pall (o :: l) = (if is_pall o then 1 else 0) + count_pall l.
Proof. unfold count_pall. cbn [filter]. destruct (is_pall o); reflexivity. Qed.

Lemma c02_count_app a b : count_pall (a ++ b) = count_pall a + count_pall b.
Proof. unfold count_pall. rewrite filter_app, app_length. reflexivity. Qed.

Lemma c02_named_cons o l : named (o :: l) = named_of o ++ named l.
Proof. reflexivity. Qed.

Lemma c02_named_app a b : named (a ++ b) = named a ++ named b.
Proof. unfold named. apply flat_map_app. Qed.

(* operations other than the atomic push never change a name they do not list, whatever the fault *)
Lemma c02_run_no_pall s f ops : forall i r n,
  count_pall ops = 0 -> ~ In n (named ops) -> lookup (run s f i ops r) n = lookup r n.
Proof.
  induction ops as [|o rest IH]; intros i r n C N; [reflexivity|].
  rewrite c02_count_cons in C. rewrite c02_named_cons, in_app_iff in N.
  assert (P : is_pall o = false) by (destruct (is_pall o); [cbn in C; discriminate C | reflexivity]).
  rewrite P in C. cbn [Nat.add] in C.
  pose proof (c02_exec_untouched s f i r o n P (fun H => N (or_introl H))) as U.
  cbn [run]. destruct (exec_one s f i r o) as [r'|r']; cbn [c02_vstate] in U; [exact U|].
  rewrite IH; [exact U | exact C | exact (fun H => N (or_intror H))].
Qed.

(* once no atomic push is left, only the first operation matters to the names the others do not list *)
Lemma c02_run_head s f i r o rest n :
  count_pall rest = 0 -> ~ In n (named rest) ->
  lookup (run s f i (o :: rest) r) n = lookup (c02_vstate (exec_one s f i r o)) n.
Proof.
  intros C N. cbn [run]. destruct (exec_one s f i r o); [reflexivity | apply c02_run_no_pall; assumption].
Qed.

(* a run either ends inside its first part or goes on with the second from where the first part ends *)
Lemma c02_run_app s f a : forall i b r,
  run s f i (a ++ b) r = run s f i a r \/ run s f i (a ++ b) r = run s f (length a + i) b (run s f i a r).
Proof.
  induction a as [|o a IH]; intros i b r; cbn [app run length]; [right; reflexivity|].
  destruct (exec_one s f i r o) as [r'|r']; [left; reflexivity|].
  rewrite Nat.add_succ_comm. apply IH.
Qed.

Theorem c02_dest_atomic_run s f ops : forall i r,
  count_pall ops <= 1 ->
  exists b : bool, forall n, ~ In n (named ops) ->
    lookup (run s f i ops r) n = if b then lookup (run s NoFault i ops r) n else lookup r n.
Proof.
  induction ops as [|o rest IH]; intros i r C.
  - exists false. reflexivity.
  - rewrite c02_count_cons in C.
    assert (Nsplit : forall n, ~ In n (named (o :: rest)) -> ~ In n (named_of o) /\ ~ In n (named rest)).
    { intros n N. rewrite c02_named_cons, in_app_iff in N. tauto. }
    destruct (is_pall o) eqn:P.
    + (* the atomic push leaves its own result or the state before it; nothing after it touches the other names *)
      assert (C0 : count_pall rest = 0) by (cbn in C; lia).
      assert (V : c02_vstate (exec_one s f i r o) = r \/ c02_vstate (exec_one s f i r o) = fst (step s r o)).
      { destruct (c02_exec_cases s f i r o) as [E|(r' & E & [->|[->|[ref ->]]])]; rewrite E; cbn [c02_vstate].
        - right. apply c02_normal_state.
        - left. reflexivity.
        - right. reflexivity.
        - left. destruct o; try discriminate P. reflexivity. }
      destruct V as [V|V].
      * exists false. intros n N. destruct (Nsplit n N) as [_ Nr].
        rewrite c02_run_head, V by assumption. reflexivity.
      * exists true. intros n N. destruct (Nsplit n N) as [_ Nr].
        rewrite !c02_run_head, V by assumption. cbn [exec_one]. rewrite c02_normal_state. reflexivity.
    + assert (C1 : count_pall rest <= 1) by (cbn in C; lia).
      assert (U : forall f n, ~ In n (named (o :: rest)) -> lookup (c02_vstate (exec_one s f i r o)) n = lookup r n).
      { intros f' n N. apply c02_exec_untouched; [exact P | exact (proj1 (Nsplit n N))]. }
      destruct (c02_exec_cases s f i r o) as [E|(r' & E & _)].
      * destruct (normal s r o) as [r1|r1] eqn:Nm.
        -- exists true. intros n _. cbn [run exec_one]. rewrite E, Nm. reflexivity.
        -- destruct (IH (S i) r1 C1) as [b Hb]. exists b. intros n N.
           cbn [run exec_one]. rewrite E, Nm, (Hb n (proj2 (Nsplit n N))). destruct b; [reflexivity|].
           specialize (U NoFault n N). cbn [exec_one] in U. rewrite Nm in U. exact U.
      * exists false. intros n N. specialize (U f n N). cbn [run]. rewrite E in U |- *. exact U.
Qed.

Theorem c02_dest_atomic s f ops r :
  count_pall ops <= 1 ->
  SwitchTogether (fun n => ~ In n (named ops)) r (publish s NoFault ops r) (publish s f ops r).
Proof.
  intro C. destruct (c02_dest_atomic_run s f ops 0 r C) as [[|] Hb].
  - right. exact Hb.
  - left. exact Hb.
Qed.

Lemma c02_all_or_none_ext s ra rb c ts :
  (forall t, In t ts -> lookup ra t = lookup rb t) -> all_or_none s ra c ts = all_or_none s rb c ts.
Proof.
  intro H. unfold all_or_none.
  assert (L : forall t, In t ts -> landed s ra c t = landed s rb c t) by (intros t Ht; unfold landed; rewrite (H t Ht); reflexivity).
  f_equal; apply forallb_ext_in; intros t Ht; rewrite (L t Ht); reflexivity.
Qed.

Lemma c02_incl_b_ext s ra rb pairs :
  (forall n, In n (map fst pairs ++ map snd pairs) -> lookup ra n = lookup rb n) ->
  incl_b (mkClone s ra) pairs = incl_b (mkClone s rb) pairs.
Proof.
  intro H. unfold incl_b. apply forallb_ext_in. intros p Hp. cbn [refs st].
  rewrite !H by (apply in_or_app; auto using in_map). reflexivity.
Qed.

(* an observable that reads only names the job never pushes by name sees the initial state or the state the
   uninterrupted job leaves *)
Lemma c02_observable_kept (obs : refmap -> bool) (reads : list nat) s f ops r :
  count_pall ops <= 1 -> (forall n, In n reads -> ~ In n (named ops)) ->
  (forall ra rb, (forall n, In n reads -> lookup ra n = lookup rb n) -> obs ra = obs rb) ->
  obs r = true -> obs (publish s NoFault ops r) = true -> obs (publish s f ops r) = true.
Proof.
  intros C N Ext O0 O1.
  destruct (c02_dest_atomic s f ops r C) as [H|H].
  - rewrite <- O0. apply Ext. intros n Hn. apply H, N, Hn.
  - rewrite <- O1. apply Ext. intros n Hn. apply H, N, Hn.
Qed.

Lemma c02_landed_iff s r c t : landed s r c t = true <-> Landed s r c t.
Proof.
  unfold landed, Landed. split.
  - destruct (lookup r t) as [y|]; [|discriminate]. intro H. exists y. split; [reflexivity | exact H].
  - intros [y [-> H]]. exact H.
Qed.

Lemma c02_all_or_none_iff s r p : all_or_none s r (pr_tip p) (pr_targets p) = true <-> AllOrNone s r p.
Proof.
  unfold all_or_none, AllOrNone. rewrite orb_true_iff, !forallb_forall.
  setoid_rewrite negb_true_iff. setoid_rewrite <- not_true_iff_false. setoid_rewrite c02_landed_iff. reflexivity.
Qed.

Lemma c02_incl_iff s r pairs : incl_b (mkClone s r) pairs = true <-> InclHolds s r pairs.
Proof.
  unfold incl_b, InclHolds. rewrite forallb_forall. cbn [refs st]. split.
  - intros H a b x y Hin La Lb. specialize (H (a, b) Hin). cbn [fst snd] in H. rewrite La, Lb in H. exact H.
  - intros H [a b] Hin. cbn [fst snd].
    destruct (lookup r a) as [x|] eqn:La; [|reflexivity]. destruct (lookup r b) as [y|] eqn:Lb; [|reflexivity].
    exact (H a b x y Hin La Lb).
Qed.

Lemma c02_state_ok_iff s r prs pairs : state_ok_b s r prs pairs = true <-> StateOk s r prs pairs.
Proof.
  unfold state_ok_b, StateOk. rewrite andb_true_iff, forallb_forall, c02_incl_iff.
  setoid_rewrite c02_all_or_none_iff. reflexivity.
Qed.

Lemma c02_state_ok_ext s ra rb prs pairs :
  (forall n, In n (protected_names prs pairs) -> lookup ra n = lookup rb n) ->
  state_ok_b s ra prs pairs = state_ok_b s rb prs pairs.
Proof.
  intro H. unfold state_ok_b, protected_names in *. f_equal.
  - apply forallb_ext_in. intros p Hp. apply c02_all_or_none_ext. intros t Ht. apply H.
    apply in_or_app. left. apply in_flat_map. exists p. split; assumption.
  - apply c02_incl_b_ext. intros n Hn. apply H. apply in_or_app. right. exact Hn.
Qed.

Theorem c02_landed_all sg c (t0 w0 : name) (rest : list (name * name)) c' x :
  wf_clone c -> NoDup (t0 :: map fst rest) ->
  (forall w, In w (w0 :: map snd rest) -> ~ In w (t0 :: map fst rest)) ->
  lookup (refs c) w0 = Some x ->
  merge_integration sg c ((t0, w0) :: rest) = Some c' ->
  wf_clone c' /\
  forall t, In t (t0 :: map fst rest) -> exists y, lookup (refs c') t = Some y /\ Anc (st c') x y.
Proof.
  intros W ND Dis Lx H.
  destruct (merge_integration_ordered sg c t0 w0 rest c' W ND (fun w Hw => Dis w (or_intror Hw)) H) as [Ord L0].
  destruct (L0 x Lx) as (y0 & Ly0 & A0).
  split; [exact (proj1 (proj1 (run_ops_grows _ _ _ W H)))|].
  intros t1 [<-|Hin]; [exists y0; split; assumption|].
  inversion Ord as [|? ? Ft _]; subst. rewrite Forall_forall in Ft.
  destruct (Ft t1 Hin) as (a & y & La & Ly & Aay). rewrite Ly0 in La. injection La as <-.
  exists y. split; [exact Ly | exact (Anc_trans _ _ _ _ A0 Aay)].
Qed.

(* Publishing heads [local] that all contain the commit [x] on the branches [ts], with the one atomic push
   wherever it sits among the job's other operations: whatever the fault, the remote keeps every one of [ts]
   where it was or has [x] on every one of them *)
Theorem c02_atomic_push_lands s local x ts pre post deleted f r :
  wf_store s -> keys_nodup local ->
  (forall t, In t ts -> exists y, lookup local t = Some y /\ Anc s x y) ->
  count_pall pre = 0 -> count_pall post = 0 ->
  (forall t, In t ts -> ~ In t (named (pre ++ post))) ->
  let rf := publish s f (pre ++ PAll local deleted :: post) r in
  (forall t, In t ts -> lookup rf t = lookup r t) \/ (forall t, In t ts -> landed s rf x t = true).
Proof.
  intros W Kn LA Cp Cq Nn. cbv zeta. set (ops := pre ++ PAll local deleted :: post).
  assert (Nn' : forall t, In t ts -> ~ In t (named pre) /\ ~ In t (named post)).
  { intros t Ht. specialize (Nn t Ht). rewrite c02_named_app, in_app_iff in Nn. tauto. }
  assert (Nops : forall t, In t ts -> ~ In t (named ops)).
  { intros t Ht. unfold ops. rewrite c02_named_app, c02_named_cons, in_app_iff. cbn [named_of app].
    destruct (Nn' t Ht). tauto. }
  assert (C : count_pall ops <= 1).
  { unfold ops. rewrite c02_count_app, c02_count_cons, Cp, Cq. cbn. lia. }
  destruct (c02_dest_atomic s f ops r C) as [A|A]; [left; intros t Ht; exact (A t (Nops t Ht))|].
  (* the uninterrupted job stops before the atomic push, or has it refused, or accepted *)
  set (rp := run s NoFault 0 pre r).
  assert (Rp : forall t, In t ts -> lookup rp t = lookup r t).
  { intros t Ht. apply c02_run_no_pall; [exact Cp | exact (proj1 (Nn' t Ht))]. }
  unfold publish in *.
  destruct (c02_run_app s NoFault pre 0 (PAll local deleted :: post) r) as [E|E]; fold ops rp in E; rewrite E in A.
  - left. intros t Ht. rewrite (A t (Nops t Ht)). exact (Rp t Ht).
  - assert (R : forall t, In t ts ->
                lookup (run s f 0 ops r) t = lookup (fst (step s rp (PAll local deleted))) t).
    { intros t Ht. rewrite (A t (Nops t Ht)), c02_run_head by (exact Cq || exact (proj2 (Nn' t Ht))).
      cbn [exec_one]. rewrite c02_normal_state. reflexivity. }
    cbn [step] in R. destruct (push_all_atomic s rp local deleted) as [r1|] eqn:P; cbn [fst] in R.
    + right. intros t Ht. destruct (LA t Ht) as (y & Ly & Axy).
      destruct (push_all_atomic_spec _ _ _ _ _ W Kn P) as (Loc & _ & _).
      unfold landed. rewrite (R t Ht), (Loc t y Ly). apply (anc_spec _ W). exact Axy.
    + left. intros t Ht. rewrite (R t Ht). exact (Rp t Ht).
Qed.

Lemma c02_valid_hval s paths qc e : validate s paths qc = [] -> In e qc -> hval s e = [].
Proof.
  intros V Hin. destruct qc as [|e0 q]; [destruct Hin|]. unfold validate in V.
  apply app_eq_nil in V as [V _]. exact (proj1 (flat_map_nil_iff _ _) V e Hin).
Qed.

(* what _horizontal_validation accepts has its master queue on the newest queue integration branch, or on the
   destination when there is none *)
Lemma c02_hval_sync s e : hval s e = [] ->
  exists m, q_master e = Some m /\ match q_ints e with [] => m = q_dst e | (_, g) :: _ => g = m end.
Proof.
  unfold hval. destruct (q_master e) as [m|]; [|discriminate]. intro H.
  apply app_eq_nil in H as [_ H]. apply app_eq_nil in H as [H _]. exists m. split; [reflexivity|].
  destruct (q_ints e) as [|[p g] ints].
  - destruct (Nat.eqb_spec m (q_dst e)); [assumption | discriminate H].
  - destruct (Nat.eqb_spec g m); [assumption|]. destruct (anc s m g); [discriminate H|]. destruct (anc s g m); discriminate H.
Qed.

(* add_to_queue publishes q/<v> and q/w/<pr>/<v> of every target version with one named push.  That push is
   atomic (Facts_C02.named_push_atomic), so Publish does not produce the states below; they are what a per-ref
   push leaves when exactly one of these refs is refused - the master queue of version j keeps its old value, or
   the queue integration branch of version j is missing.  The next validate() reports IncoherentQueues for
   them, unless the refused update was no change at all. *)
Theorem c02_validate_rejects_half_queued s paths qc p newtip j e t :
  validate s paths qc = [] -> In e qc -> q_ver e = j -> newtip j = Some t -> q_master e <> Some t ->
  validate s paths (half_master p newtip j qc) <> [] /\ validate s paths (half_int p newtip j qc) <> [].
Proof.
  intros V Hin Ej Nt Neq. destruct (c02_hval_sync s e (c02_valid_hval s paths qc e V Hin)) as (m & Em & S).
  split; intro V'.
  - destruct (c02_hval_sync s (mkQ (q_ver e) (q_kind e) (q_dst e) (Some m) ((p, t) :: q_ints e))) as (m' & Em' & S').
    { apply (c02_valid_hval s paths _ _ V'). unfold half_master. apply in_map_iff. exists e. split; [|exact Hin].
      rewrite Ej, Nt, Nat.eqb_refl, Em. reflexivity. }
    cbn in Em', S'. congruence.
  - destruct (c02_hval_sync s (mkQ (q_ver e) (q_kind e) (q_dst e) (Some t) (q_ints e))) as (m' & Em' & S').
    { apply (c02_valid_hval s paths _ _ V'). unfold half_int. apply in_map_iff. exists e. split; [|exact Hin].
      rewrite Ej, Nt, Nat.eqb_refl. reflexivity. }
    cbn in Em', S'. injection Em' as <-. destruct (q_ints e) as [|[p' g] ints]; congruence.
Qed.

(* 0 = development/4.3, 1 = development/5.1 (contains 0), 2 = source branch (from 0), 3 = w/5.1 (merge of 1 and 2) *)
Definition ex_store : store := [mkCommit [] false; mkCommit [0] false; mkCommit [0] false; mkCommit [1; 2] true].
(* names: 10 = development/4.3, 11 = development/5.1, 20 = the source branch, 21 = w/5.1/... *)
Definition ex_remote : refmap := [(10, 0); (11, 1); (20, 2)].
Definition ex_local : refmap := [(10, 2); (11, 3); (20, 2); (21, 3)].
Definition ex_ops : list pub := [PNames ex_local [21]; PHost; PAll [(10, 2); (11, 3); (20, 2)] [21]; PHost].

Example c02_publish_examples :
  (* uninterrupted: both targets move *)
  publish ex_store NoFault ex_ops ex_remote = [(10, 2); (11, 3); (20, 2)] /\
  (* crash before the atomic push: the integration branch is there, no target moved *)
  publish ex_store (CrashBefore 2) ex_ops ex_remote = [(10, 0); (11, 1); (20, 2); (21, 3)] /\
  publish ex_store (CrashAfter 2) ex_ops ex_remote = [(10, 2); (11, 3); (20, 2)] /\
  (* the server refuses development/5.1: the whole push is refused, development/4.3 did not move either *)
  publish ex_store (Reject 0 11) ex_ops ex_remote = [(10, 0); (11, 1); (20, 2); (21, 3)] /\
  all_or_none ex_store (publish ex_store (Reject 0 11) ex_ops ex_remote) 2 [10; 11] = true /\
  (* what a non-atomic publication of the same heads would leave: the change on one target only *)
  all_or_none ex_store (push_names ex_store ex_remote ex_local [10]) 2 [10; 11] = false /\
  shape_ok [10; 11] ex_ops = true /\ count_pall ex_ops = 1.
Proof. vm_compute. repeat split. Qed.

Example c02_merge_example :
  let c := mkClone [mkCommit [] false; mkCommit [0] false; mkCommit [0] false] [(10, 0); (11, 1); (20, 2); (21, 2)] in
  exists c', merge_integration [Octopus] c [(10, 20); (11, 21)] = Some c' /\
             landed (st c') (refs c') 2 10 = true /\ landed (st c') (refs c') 2 11 = true /\
             landed (st c) (refs c) 2 10 = false.
Proof.
  exists (mkClone [mkCommit [] false; mkCommit [0] false; mkCommit [0] false; mkCommit [1; 2] true]
                  [(10, 2); (11, 3); (20, 2); (21, 2)]).
  vm_compute. repeat split.
Qed.

(* queues: versions 1 (4.3), 2 (5.1), 3 (10.0); commits 0,1,2 = the development tips (each contains the
   previous), 3 = source of pull request 7 (from 0), 4 = its queue commit on 5.1 (parents 1 and 3),
   5 = its queue commit on 10.0 (parents 2 and 4) *)
Definition exq_store : store :=
  [mkCommit [] false; mkCommit [0] false; mkCommit [1] false; mkCommit [0] false; mkCommit [1; 3] true; mkCommit [2; 4] true].
Definition exq_empty : qcoll := [mkQ 1 VDev 0 (Some 0) []; mkQ 2 VDev 1 (Some 1) []; mkQ 3 VDev 2 (Some 2) []].
Definition exq_tip (v : nat) : option cid :=
  match v with 1 => Some 3 | 2 => Some 4 | 3 => Some 5 | _ => None end.

Example c02_validate_examples :
  validate exq_store [[1; 2; 3]] exq_empty = [] /\
  queued 7 exq_tip exq_empty = [mkQ 1 VDev 0 (Some 3) [(7, 3)]; mkQ 2 VDev 1 (Some 4) [(7, 4)]; mkQ 3 VDev 2 (Some 5) [(7, 5)]] /\
  validate exq_store [[1; 2; 3]] (queued 7 exq_tip exq_empty) = [] /\
  validate exq_store [[1; 2; 3]] (half_master 7 exq_tip 2 exq_empty) = [ELateVsInt; EInclusion] /\
  validate exq_store [[1; 2; 3]] (half_int 7 exq_tip 2 exq_empty) = [ENotInSync; EOrder] /\
  validate exq_store [[1; 2; 3]] (half_int 7 exq_tip 1 exq_empty) = [ENotInSync] /\
  (* two lost refs in the middle of the cascade: caught by the vertical check only *)
  validate exq_store [[1; 2; 3]]
    [mkQ 1 VDev 0 (Some 3) [(7, 3)]; mkQ 2 VDev 1 (Some 1) []; mkQ 3 VDev 2 (Some 5) [(7, 5)]] = [EOrder] /\
  (* master queue of a middle version missing altogether *)
  validate exq_store [[1; 2; 3]] [mkQ 1 VDev 0 (Some 0) []; mkQ 3 VDev 2 (Some 2) []] = [EMasterMissing].
Proof. vm_compute. repeat split. Qed.

(* Observation O1 (DESIGN 7), outside the one-ref-at-a-time fault model: when BOTH refs of the lowest target
   version are lost (q/4.3 keeps the development tip or is absent, q/w/7/4.3 is missing) validate accepts
   a pull request queued on the upper part of its cascade only. *)
Example validate_incomplete :
  validate exq_store [[1; 2; 3]]
    [mkQ 1 VDev 0 (Some 0) []; mkQ 2 VDev 1 (Some 4) [(7, 4)]; mkQ 3 VDev 2 (Some 5) [(7, 5)]] = [] /\
  validate exq_store [[1; 2; 3]] [mkQ 2 VDev 1 (Some 4) [(7, 4)]; mkQ 3 VDev 2 (Some 5) [(7, 5)]] = [].
Proof. vm_compute. repeat split. Qed.
