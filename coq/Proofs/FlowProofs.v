(* The branch-moving fragments preserve forward-port inclusion, only ever fast-forward, and touch only the
   branches they are given.  In order: refs as association lists and the atomic push of all heads
   ([keys_nodup], push_all_atomic_spec); one merge in a clone ([wf_clone], [grows], [Below]); the merge strategies
   and the integration chain; runs of fast-forwards (merge_queues); the forward-port inclusion ([Incl],
   [upward_closed], [in_order]).  The bracketed predicates are those the property theorems of C01, C02, C03, C06,
   C08, C15 and C20 are stated in; the queue, gate and job proofs build on the lemmas.  Last, well-formedness of a
   concrete clone by evaluation, for the examples of those files. *)
From Coq Require Import List Bool Arith Lia.
Require Import BertE.Model.Git BertE.Model.Flow BertE.Proofs.GitProofs.
Import ListNotations.

Lemma ForallOrdPairs_split {A} (R : A -> A -> Prop) l : ForallOrdPairs R l ->
  forall l1 a l2 b l3, l = l1 ++ a :: l2 ++ b :: l3 -> R a b.
Proof.
  intros H l1. revert l H. induction l1 as [|x l1 IH]; intros l H a l2 b l3 E; subst l.
  - cbn in H. inversion H as [|? ? F _]; subst. rewrite Forall_forall in F. apply F.
    apply in_or_app. right. left. reflexivity.
  - cbn in H. inversion H; subst. eapply IH; [eassumption | reflexivity].
Qed.

Lemma ForallOrdPairs_trans_cons {A} (R : A -> A -> Prop) a b l :
  (forall x y z, R x y -> R y z -> R x z) -> R a b -> ForallOrdPairs R (b :: l) -> ForallOrdPairs R (a :: b :: l).
Proof.
  intros T Rab Ord. constructor; [|exact Ord]. constructor; [exact Rab|].
  inversion Ord as [|? ? Fb _]; subst. exact (Forall_impl _ (fun n => T a b n Rab) Fb).
Qed.

Lemma lookup_update r n x m : lookup (update r n x) m = if Nat.eqb n m then Some x else lookup r m.
Proof.
  induction r as [|[k v] t IH]; cbn; [reflexivity|].
  destruct (Nat.eqb k n) eqn:E; cbn.
  - apply Nat.eqb_eq in E. subst k. destruct (Nat.eqb n m); reflexivity.
  - rewrite IH. destruct (Nat.eqb k m) eqn:E2; [|reflexivity].
    apply Nat.eqb_eq in E2. subst k. rewrite Nat.eqb_sym, E. reflexivity.
Qed.

Lemma lookup_update_eq r n x : lookup (update r n x) n = Some x.
Proof. rewrite lookup_update, Nat.eqb_refl. reflexivity. Qed.

Lemma lookup_update_neq r n m x : m <> n -> lookup (update r n x) m = lookup r m.
Proof. intro H. rewrite lookup_update. destruct (Nat.eqb_spec n m); [congruence | reflexivity]. Qed.

Lemma update_same r n x : lookup r n = Some x -> update r n x = r.
Proof.
  induction r as [|[k v] t IH]; cbn; [discriminate|].
  destruct (Nat.eqb k n); intro H.
  - injection H as ->. reflexivity.
  - rewrite (IH H). reflexivity.
Qed.

Lemma lookup_remove_neq r a n : n <> a -> lookup (remove r a) n = lookup r n.
Proof.
  intro H. induction r as [|[k v] t IH]; cbn [remove lookup]; [reflexivity|].
  destruct (Nat.eqb_spec k a) as [->|_]; cbn [lookup]; rewrite IH; [|reflexivity].
  destruct (Nat.eqb_spec a n); [congruence | reflexivity].
Qed.

Definition keys_nodup (r : refmap) : Prop := NoDup (map fst r).

Lemma lookup_In r n x : lookup r n = Some x -> In (n, x) r.
Proof.
  induction r as [|[k v] t IH]; cbn; [discriminate|].
  destruct (Nat.eqb_spec k n) as [->|_]; intro H.
  - injection H as <-. left; reflexivity.
  - right. exact (IH H).
Qed.

Lemma In_lookup r n x : keys_nodup r -> In (n, x) r -> lookup r n = Some x.
Proof.
  intros ND H. induction r as [|[k v] t IH]; [destruct H|].
  cbn. destruct H as [E|H].
  - injection E as -> ->. rewrite Nat.eqb_refl. reflexivity.
  - inversion ND as [|? ? Hn ND']; subst. destruct (Nat.eqb_spec k n) as [->|_]; [|exact (IH ND' H)].
    destruct Hn. exact (in_map fst _ _ H).
Qed.

Lemma fold_update_lookup (l : refmap) : forall r n,
  keys_nodup l ->
  lookup (fold_left (fun r kv => update r (fst kv) (snd kv)) l r) n =
  match lookup l n with Some x => Some x | None => lookup r n end.
Proof.
  induction l as [|[k v] t IH]; intros r n ND; cbn [fold_left lookup]; [reflexivity|].
  inversion ND as [|? ? Hn ND']; subst. rewrite (IH _ n ND'), lookup_update. cbn [fst snd].
  destruct (Nat.eqb_spec k n) as [->|_]; [|reflexivity].
  destruct (lookup t n) as [x|] eqn:L; [|reflexivity].
  destruct Hn. exact (in_map fst _ _ (lookup_In _ _ _ L)).
Qed.

Lemma lookup_filter_keep (f : nat -> bool) r n :
  lookup (filter (fun kv => f (fst kv)) r) n = if f n then lookup r n else None.
Proof.
  induction r as [|[k v] t IH]; cbn; [destruct (f n); reflexivity|].
  destruct (f k) eqn:Fk; cbn; destruct (Nat.eqb_spec k n) as [->|_]; rewrite ?IH, ?Fk; reflexivity.
Qed.

Theorem push_all_atomic_spec s remote local deleted remote' :
  wf_store s -> keys_nodup local ->
  push_all_atomic s remote local deleted = Some remote' ->
  (forall n x, lookup local n = Some x -> lookup remote' n = Some x) /\
  (forall n, lookup local n = None -> lookup remote' n = if mem n deleted then None else lookup remote n) /\
  (forall n old x, lookup remote n = Some old -> lookup local n = Some x -> Anc s old x).
Proof.
  intros W ND H. unfold push_all_atomic in H.
  destruct (forallb (fun kv => ref_acceptable s remote (fst kv) (snd kv)) local) eqn:Acc; [|discriminate H].
  destruct (forallb (fun n => match lookup remote n with Some _ => true | None => false end) deleted); [|discriminate H].
  cbn [andb] in H. injection H as <-. split; [|split].
  - intros n x L. rewrite fold_update_lookup by exact ND. rewrite L. reflexivity.
  - intros n L. rewrite fold_update_lookup by exact ND. rewrite L.
    rewrite (lookup_filter_keep (fun k => negb (mem k deleted))). destruct (mem n deleted); reflexivity.
  - intros n old x Lr Ll. rewrite forallb_forall in Acc. specialize (Acc (n, x) (lookup_In _ _ _ Ll)).
    cbn in Acc. exact (ref_acceptable_ff _ _ _ _ _ W Acc Lr).
Qed.

Lemma lookups_spec r ns cs : lookups r ns = Some cs ->
  (forall n, In n ns -> lookup r n <> None) /\
  (forall n x, In n ns -> lookup r n = Some x -> In x cs) /\
  (forall x, In x cs -> exists n, In n ns /\ lookup r n = Some x).
Proof.
  revert cs. induction ns as [|n t IH]; intros cs H; cbn in H.
  - injection H as <-. split; [intros n [] | split; [intros n x [] | intros x []]].
  - destruct (lookup r n) as [c|] eqn:L; [|discriminate H].
    destruct (lookups r t) as [cs'|]; [|discriminate H]. injection H as <-.
    destruct (IH cs' eq_refl) as (Hs & Hin & Hinv). split; [|split].
    + intros m [<-|Hm]; [congruence | exact (Hs m Hm)].
    + intros m x [<-|Hm] Lm; [rewrite L in Lm; injection Lm as <-; left; reflexivity | right; exact (Hin m x Hm Lm)].
    + intros x [<-|Hx]; [exists n; split; [left; reflexivity | exact L]|].
      destruct (Hinv x Hx) as (m & Hm & Lm). exists m. split; [right; exact Hm | exact Lm].
Qed.

Definition wf_clone (c : clone) : Prop :=
  wf_store (st c) /\ forall n x, lookup (refs c) n = Some x -> x < length (st c).

Lemma wf_clone_update c n x : wf_clone c -> x < length (st c) -> wf_clone (mkClone (st c) (update (refs c) n x)).
Proof.
  intros [W B] L. split; [exact W|]. intros m y H. cbn in H. rewrite lookup_update in H.
  destruct (Nat.eqb n m); [injection H as <-; exact L | exact (B m y H)].
Qed.

(* everything later lemmas need of one merge; the content is GitProofs.merge_contains on the tips found *)
Lemma merge_into_spec c dst srcs c' :
  wf_clone c -> merge_into c dst srcs = Some c' ->
  wf_clone c' /\ extends (st c) (st c') /\
  (forall n, n <> dst -> lookup (refs c') n = lookup (refs c) n) /\
  exists h t, lookup (refs c) dst = Some h /\ lookup (refs c') dst = Some t /\ Anc (st c') h t /\
              forall s x, In s srcs -> lookup (refs c) s = Some x -> Anc (st c') x t.
Proof.
  intros [W B] H. unfold merge_into in H.
  destruct (lookup (refs c) dst) as [h|] eqn:Lh; [|discriminate H].
  destruct (lookups (refs c) srcs) as [ss|] eqn:Ls; [|discriminate H].
  injection H as <-. cbn [st refs].
  assert (Fs : Forall (fun x => x < length (st c)) ss).
  { apply Forall_forall. intros x Hx. destruct (proj2 (proj2 (lookups_spec _ _ _ Ls)) x Hx) as (n & _ & L). exact (B n x L). }
  pose proof (merge_contains (st c) h ss W (B dst h Lh) Fs) as M.
  cbv zeta in M. destruct M as (W' & E & T & Ah & As).
  split; [split; [exact W'|] |].
  - intros n x L. cbn [refs st] in L |- *. rewrite lookup_update in L.
    destruct (Nat.eqb dst n); [injection L as <-; exact T|].
    pose proof (B n x L). pose proof (extends_length _ _ E). lia.
  - split; [exact E|]. split; [intros n Ne; apply lookup_update_neq; exact Ne|].
    exists h, (snd (apply_merge (st c) h ss)). split; [reflexivity|]. split; [apply lookup_update_eq|].
    split; [exact Ah|]. intros s x Hs Lx. apply As. exact (proj1 (proj2 (lookups_spec _ _ _ Ls)) s x Hs Lx).
Qed.

Definition grows (c c' : clone) : Prop :=
  wf_clone c' /\ extends (st c) (st c') /\
  (forall n x, lookup (refs c) n = Some x -> exists y, lookup (refs c') n = Some y /\ Anc (st c') x y) /\
  (forall n, lookup (refs c) n = None -> lookup (refs c') n = None).

Lemma grows_refl c : wf_clone c -> grows c c.
Proof.
  intros [W B]. split; [split; assumption|]. split; [apply extends_refl|]. split.
  - intros n x L. exists x. split; [exact L | apply Anc_refl; exact (B n x L)].
  - auto.
Qed.

Lemma grows_trans a b c : grows a b -> grows b c -> grows a c.
Proof.
  intros (Wb & Eb & Fb & Nb) (Wc & Ec & Fc & Nc).
  split; [exact Wc|]. split; [exact (extends_trans _ _ _ Eb Ec)|]. split.
  - intros n x L. destruct (Fb n x L) as [y [Ly Ay]]. destruct (Fc n y Ly) as [z [Lz Az]].
    exists z. split; [exact Lz|]. exact (Anc_trans _ _ _ _ (extends_Anc _ _ _ _ Ec Ay) Az).
  - intros n L. apply Nc, Nb, L.
Qed.

Lemma merge_into_grows c dst srcs c' : wf_clone c -> merge_into c dst srcs = Some c' -> grows c c'.
Proof.
  intros Wc H. destruct (merge_into_spec c dst srcs c' Wc H) as (W' & E & Oth & h & t & Lh & Lt & Aht & _).
  split; [exact W'|]. split; [exact E|]. split.
  - intros n x L. destruct (Nat.eq_dec n dst) as [->|Ne].
    + rewrite Lh in L. injection L as <-. exists t. split; assumption.
    + exists x. split; [rewrite Oth by exact Ne; exact L|].
      apply (extends_Anc _ _ _ _ E). apply Anc_refl. exact (proj2 Wc n x L).
  - intros n L. destruct (Nat.eq_dec n dst) as [->|Ne]; [congruence|]. rewrite Oth by exact Ne. exact L.
Qed.

Lemma run_ops_app c o1 o2 : run_ops c (o1 ++ o2) =
  match run_ops c o1 with Some c1 => run_ops c1 o2 | None => None end.
Proof.
  revert c. induction o1 as [|o t IH]; intro c; cbn; [reflexivity|].
  destruct (merge_into c (op_dst o) (op_srcs o)); [apply IH | reflexivity].
Qed.

Lemma run_ops_grows ops : forall c c', wf_clone c -> run_ops c ops = Some c' ->
  grows c c' /\ forall n, ~ In n (map op_dst ops) -> lookup (refs c') n = lookup (refs c) n.
Proof.
  induction ops as [|o t IH]; intros c c' W H; cbn in H.
  - injection H as <-. split; [apply grows_refl; exact W | reflexivity].
  - destruct (merge_into c (op_dst o) (op_srcs o)) as [c1|] eqn:M; [|discriminate H].
    pose proof (merge_into_grows _ _ _ _ W M) as G1.
    destruct (IH c1 c' (proj1 G1) H) as [G2 U2]. split; [exact (grows_trans _ _ _ G1 G2)|].
    intros n Hn. cbn in Hn. rewrite U2 by tauto.
    destruct (merge_into_spec _ _ _ _ W M) as (_ & _ & Oth & _). apply Oth. intro; subst; tauto.
Qed.

Definition Below (c : clone) (a b : name) : Prop :=
  exists x y, lookup (refs c) a = Some x /\ lookup (refs c) b = Some y /\ Anc (st c) x y.

Lemma Below_refl c a : wf_clone c -> lookup (refs c) a <> None -> Below c a a.
Proof.
  intros W L. destruct (lookup (refs c) a) as [x|] eqn:Lx; [|congruence].
  exists x, x. split; [exact Lx|]. split; [exact Lx|]. apply Anc_refl. exact (proj2 W a x Lx).
Qed.

Lemma Below_trans c a b d : Below c a b -> Below c b d -> Below c a d.
Proof.
  intros (x & y & La & Lb & A) (y' & z & Lb' & Ld & A'). rewrite Lb in Lb'. injection Lb' as <-.
  exists x, z. repeat split; try assumption. exact (Anc_trans _ _ _ _ A A').
Qed.

(* two pairs of names, so that it also serves when a tip is reached under another name *)
Lemma Below_transport c c' a b a' b' :
  extends (st c) (st c') -> lookup (refs c') a' = lookup (refs c) a -> lookup (refs c') b' = lookup (refs c) b ->
  Below c a b -> Below c' a' b'.
Proof.
  intros E Ua Ub (x & y & La & Lb & A). exists x, y. rewrite Ua, Ub.
  split; [exact La|]. split; [exact Lb|]. exact (extends_Anc _ _ _ _ E A).
Qed.

Lemma Below_left_some c a b : Below c a b -> lookup (refs c) a <> None.
Proof. intros (x & y & La & _). congruence. Qed.

Lemma Below_right_some c a b : Below c a b -> lookup (refs c) b <> None.
Proof. intros (x & y & _ & Lb & _). congruence. Qed.

Lemma Below_grows_right c c' a b : grows c c' -> lookup (refs c') a = lookup (refs c) a -> Below c a b -> Below c' a b.
Proof.
  intros (W' & E & F & _) Ua (x & y & La & Lb & A).
  destruct (F b y Lb) as [y' [Lb' Ay]]. exists x, y'. split; [rewrite Ua; exact La|]. split; [exact Lb'|].
  exact (Anc_trans _ _ _ _ (extends_Anc _ _ _ _ E A) Ay).
Qed.

Lemma Below_update_other c n x a b : a <> n -> b <> n ->
  Below c a b -> Below (mkClone (st c) (update (refs c) n x)) a b.
Proof.
  intros Na Nb (u & v & La & Lb & A). exists u, v. cbn. rewrite !lookup_update_neq by assumption. tauto.
Qed.

Lemma lookups_below c srcs r x :
  lookup (refs c) r = Some x -> (forall s, In s srcs -> Below c s r) ->
  exists ss, lookups (refs c) srcs = Some ss /\ (forall y, In y ss -> Anc (st c) y x) /\
             (forall s y, In s srcs -> lookup (refs c) s = Some y -> In y ss).
Proof.
  intros Lr All. assert (E : exists ss, lookups (refs c) srcs = Some ss /\ forall y, In y ss -> Anc (st c) y x).
  { induction srcs as [|s t IH]; [exists []; split; [reflexivity | intros ? []]|].
    destruct (All s (or_introl eq_refl)) as (y & x' & Ly & Lx' & Ay). rewrite Lr in Lx'. injection Lx' as <-.
    destruct IH as (ss & Ls & Pss); [intros s' Hs'; apply All; right; exact Hs'|].
    exists (y :: ss). cbn. rewrite Ly, Ls. split; [reflexivity|].
    intros z [<-|Hz]; [exact Ay | exact (Pss z Hz)]. }
  destruct E as (ss & Ls & Pss). exists ss. split; [exact Ls|]. split; [exact Pss|].
  exact (proj1 (proj2 (lookups_spec _ _ _ Ls))).
Qed.

Lemma merge_into_uptodate c dst srcs :
  wf_clone c -> lookup (refs c) dst <> None -> (forall s, In s srcs -> Below c s dst) ->
  merge_into c dst srcs = Some c.
Proof.
  intros [W B] Ld All. destruct (lookup (refs c) dst) as [h|] eqn:Lh; [|congruence].
  unfold merge_into. rewrite Lh.
  destruct (lookups_below c srcs dst h Lh All) as (ss & Ls & Pss & _).
  rewrite Ls, (apply_merge_uptodate (st c) h ss W Pss). cbn [fst snd].
  rewrite (update_same _ _ _ Lh). destruct c; reflexivity.
Qed.

Lemma merge_into_ff c dst srcs r x :
  wf_clone c -> In r srcs -> lookup (refs c) r = Some x ->
  Below c dst r -> (forall s, In s srcs -> Below c s r) ->
  merge_into c dst srcs = Some (mkClone (st c) (update (refs c) dst x)).
Proof.
  intros [W B] Hr Lr (h & x' & Lh & Lr' & A) All. rewrite Lr in Lr'. injection Lr' as <-.
  unfold merge_into. rewrite Lh.
  destruct (lookups_below c srcs r x Lr All) as (ss & Ls & Pss & Iss).
  rewrite Ls. rewrite (apply_merge_ff_general (st c) h x ss W A (Iss r x Hr Lr) Pss). reflexivity.
Qed.

Lemma strategy_ops_shape sg dst a b :
  exists srcss, strategy_ops sg dst a b = map (mkOp dst) srcss /\ forall s, In s (concat srcss) <-> s = a \/ s = b.
Proof.
  destruct sg.
  - exists [[a; b]]. split; [reflexivity | cbn; intuition congruence].
  - exists [[b; a]]. split; [reflexivity | cbn; intuition congruence].
  - exists [[a]; [b]]. split; [reflexivity | cbn; intuition congruence].
  - exists [[b]; [a]]. split; [reflexivity | cbn; intuition congruence].
Qed.

Lemma strategy_ops_dsts sg dst a b n : In n (map op_dst (strategy_ops sg dst a b)) -> n = dst.
Proof.
  destruct (strategy_ops_shape sg dst a b) as (ss & -> & _). rewrite map_map.
  intros (x & E & _)%in_map_iff. symmetry. exact E.
Qed.

Lemma strategy_ops_srcs sg dst a b s : In s (flat_map op_srcs (strategy_ops sg dst a b)) <-> s = a \/ s = b.
Proof.
  destruct (strategy_ops_shape sg dst a b) as (ss & -> & H). rewrite <- H.
  rewrite flat_map_concat_map, map_map. cbn [op_srcs]. rewrite map_id. reflexivity.
Qed.

Lemma merge_into_srcs c dst srcs c' : merge_into c dst srcs = Some c' ->
  forall s, In s srcs -> lookup (refs c) s <> None.
Proof.
  intro H. unfold merge_into in H.
  destruct (lookup (refs c) dst) as [h|]; [|discriminate H].
  destruct (lookups (refs c) srcs) as [ss|] eqn:Ls; [|discriminate H].
  exact (proj1 (lookups_spec _ _ _ Ls)).
Qed.

Lemma merge_into_below c dst srcs c' s :
  wf_clone c -> merge_into c dst srcs = Some c' -> In s srcs -> s <> dst -> Below c' s dst.
Proof.
  intros W M Hs Ns. destruct (merge_into_spec _ _ _ _ W M) as (_ & _ & Oth & h & t & _ & Lt & _ & As).
  pose proof (merge_into_srcs _ _ _ _ M s Hs) as Ls.
  destruct (lookup (refs c) s) as [x|] eqn:Lx; [|congruence].
  exists x, t. split; [rewrite (Oth s Ns); exact Lx|]. split; [exact Lt | exact (As s x Hs Lx)].
Qed.

Lemma run_same_dst dst srcss : forall c c1,
  wf_clone c -> ~ In dst (concat srcss) -> run_ops c (map (mkOp dst) srcss) = Some c1 ->
  forall s, In s (concat srcss) ->
  exists x t, lookup (refs c) s = Some x /\ lookup (refs c1) dst = Some t /\ Anc (st c1) x t.
Proof.
  induction srcss as [|srcs rest IH]; intros c c1 W N H s Hs; [destruct Hs|].
  cbn [map run_ops op_dst op_srcs] in H.
  destruct (merge_into c dst srcs) as [c'|] eqn:M; [|discriminate H].
  destruct (merge_into_spec _ _ _ _ W M) as (W' & _ & Oth & h & t & _ & Lt & _ & As).
  cbn [concat] in Hs, N. rewrite in_app_iff in Hs, N. destruct Hs as [Hs|Hs].
  - pose proof (merge_into_srcs _ _ _ _ M s Hs) as Ls.
    destruct (lookup (refs c) s) as [x|] eqn:Lx; [|congruence].
    destruct (run_ops_grows _ _ _ W' H) as [(_ & E & F & _) _].
    destruct (F dst t Lt) as (t' & Lt' & At). exists x, t'. split; [reflexivity|]. split; [exact Lt'|].
    exact (Anc_trans _ _ _ _ (extends_Anc _ _ _ _ E (As s x Hs Lx)) At).
  - destruct (IH c' c1 W' (fun K => N (or_intror K)) H s Hs) as (x & t' & Lx & R).
    exists x, t'. split; [|exact R]. rewrite <- Oth; [exact Lx|]. intros ->. tauto.
Qed.

Lemma strategy_merges sg c dst a b c1 :
  wf_clone c -> dst <> a -> dst <> b -> run_ops c (strategy_ops sg dst a b) = Some c1 ->
  grows c c1 /\ (forall n, n <> dst -> lookup (refs c1) n = lookup (refs c) n) /\ Below c1 a dst /\ Below c1 b dst.
Proof.
  intros W Na Nb H. destruct (run_ops_grows _ _ _ W H) as [G U].
  assert (Un : forall n, n <> dst -> lookup (refs c1) n = lookup (refs c) n).
  { intros n Hn. apply U. intro K. exact (Hn (strategy_ops_dsts _ _ _ _ _ K)). }
  destruct (strategy_ops_shape sg dst a b) as (srcss & E & Hin). rewrite E in H.
  assert (Nd : ~ In dst (concat srcss)) by (intro K; apply Hin in K as [|]; congruence).
  assert (Key : forall s, s = a \/ s = b -> Below c1 s dst).
  { intros s Hs. apply Hin in Hs. destruct (run_same_dst dst srcss c c1 W Nd H s Hs) as (x & t & Lx & Lt & A).
    exists x, t. rewrite Un by (intros ->; exact (Nd Hs)). auto. }
  split; [exact G|]. split; [exact Un|]. split; apply Key; auto.
Qed.

Lemma chain_ops_dsts sg prev pairs n : In n (map op_dst (chain_ops sg prev pairs)) -> In n (map fst pairs).
Proof.
  revert sg prev. induction pairs as [|[t w] rest IH]; intros sg prev H; cbn in H; [destruct H|].
  rewrite map_app, in_app_iff in H. destruct H as [H|H]; [left | right; exact (IH _ _ H)].
  symmetry. exact (strategy_ops_dsts _ _ _ _ _ H).
Qed.

Lemma chain_ordered pairs : forall sg prev c c',
  wf_clone c -> NoDup (prev :: map fst pairs) ->
  (forall w, In w (map snd pairs) -> ~ In w (prev :: map fst pairs)) ->
  run_ops c (chain_ops sg prev pairs) = Some c' ->
  ForallOrdPairs (Below c') (prev :: map fst pairs).
Proof.
  (* by induction along the chain: the step puts [prev] below the first target, the rest of the run only moves
     later targets forward, and [Below] is transitive *)
  induction pairs as [|[t w] rest IH]; intros sg prev c c' W ND Dis H.
  - constructor; constructor.
  - cbn [chain_ops] in H. rewrite run_ops_app in H.
    set (s0 := match sg with x :: _ => x | [] => Octopus end) in *.
    destruct (run_ops c (strategy_ops s0 t prev w)) as [c1|] eqn:S; [|discriminate H].
    cbn [map fst snd] in ND, Dis |- *. apply NoDup_cons_iff in ND as [Np ND].
    assert (Ntp : t <> prev) by (intros ->; apply Np; left; reflexivity).
    assert (Ntw : t <> w) by (intros ->; apply (Dis w); [left; reflexivity | right; left; reflexivity]).
    destruct (strategy_merges s0 c t prev w c1 W Ntp Ntw S) as (G1 & U1 & Bp & _).
    pose proof (IH (tl sg) t c1 c' (proj1 G1) ND
                  (fun w' Hw' Hin => Dis w' (or_intror Hw') (or_intror Hin)) H) as Ord.
    destruct (run_ops_grows _ _ _ (proj1 G1) H) as [G2 U2].
    apply ForallOrdPairs_trans_cons; [exact (Below_trans c') | | exact Ord].
    apply (Below_grows_right _ _ _ _ G2); [|exact Bp].
    apply U2. intro Hin. apply chain_ops_dsts in Hin. apply Np. right. exact Hin.
Qed.

(* merge_integration_branches: the first target takes in the source branch, then each target the one before *)
Lemma merge_integration_ordered sg c t0 w0 rest c' :
  wf_clone c -> NoDup (t0 :: map fst rest) ->
  (forall w, In w (map snd rest) -> ~ In w (t0 :: map fst rest)) ->
  merge_integration sg c ((t0, w0) :: rest) = Some c' ->
  ForallOrdPairs (Below c') (t0 :: map fst rest) /\
  forall x, lookup (refs c) w0 = Some x -> exists y, lookup (refs c') t0 = Some y /\ Anc (st c') x y.
Proof.
  intros W ND Dis H. unfold merge_integration in H. cbn [merge_integration_ops run_ops op_dst op_srcs] in H.
  destruct (merge_into c t0 [w0]) as [c0|] eqn:M0; [|discriminate H].
  destruct (merge_into_spec _ _ _ _ W M0) as (W0 & _ & _ & h & t & _ & Lt & _ & As).
  split.
  - exact (chain_ordered rest sg t0 c0 c' W0 ND Dis H).
  - intros x Lx. destruct (run_ops_grows _ _ _ W0 H) as [(_ & E & F & _) _].
    destruct (F t0 t Lt) as (y & Ly & Ay). exists y. split; [exact Ly|].
    exact (Anc_trans _ _ _ _ (extends_Anc _ _ _ _ E (As w0 x (or_introl eq_refl) Lx)) Ay).
Qed.

Definition moved_onto (c : clone) (sel : list (name * name)) (c' : clone) : Prop :=
  st c' = st c /\ (forall d q, In (d, q) sel -> lookup (refs c') d = lookup (refs c) q) /\
  (forall n, ~ In n (map fst sel) -> lookup (refs c') n = lookup (refs c) n).

Lemma moved_onto_nil c : moved_onto c [] c.
Proof. split; [reflexivity|]. split; [intros ? ? [] | reflexivity]. Qed.

Lemma moved_onto_cons c d q y rest c' :
  lookup (refs c) q = Some y -> ~ In d (map fst rest) -> ~ In d (map snd rest) ->
  moved_onto (mkClone (st c) (update (refs c) d y)) rest c' -> moved_onto c ((d, q) :: rest) c'.
Proof.
  intros Ly Nf Ns (S & E & U). cbn [st refs] in S, E, U. split; [exact S|]. split.
  - intros d' q' [Eq|Hin].
    + injection Eq as <- <-. rewrite (U d Nf), lookup_update_eq. symmetry. exact Ly.
    + rewrite (E d' q' Hin). apply lookup_update_neq. intros ->. exact (Ns (in_map snd _ _ Hin)).
  - intros n Hn. cbn in Hn. rewrite U by tauto. apply lookup_update_neq. intros ->. tauto.
Qed.

Lemma merge_queues_ff sel : forall c,
  wf_clone c -> NoDup (map fst sel) -> (forall q, In q (map snd sel) -> ~ In q (map fst sel)) ->
  (forall d q, In (d, q) sel -> Below c d q) ->
  exists c', merge_queues c sel = Some c' /\ moved_onto c sel c'.
Proof.
  unfold merge_queues. induction sel as [|[d q] rest IH]; intros c W ND Dis Ff.
  - exists c. split; [reflexivity | apply moved_onto_nil].
  - cbn [map fst snd] in ND, Dis. apply NoDup_cons_iff in ND as [Nd ND].
    destruct (Ff d q (or_introl eq_refl)) as (x & y & Lx & Ly & A).
    assert (Nq : forall q', In q' (q :: map snd rest) -> q' <> d).
    { intros q' Hq' ->. exact (Dis d Hq' (or_introl eq_refl)). }
    cbn [merge_queues_ops map run_ops op_dst op_srcs fst snd].
    rewrite (merge_into_ff c d [q] q y W (or_introl eq_refl) Ly (Ff d q (or_introl eq_refl)))
      by (intros s [<-|[]]; apply Below_refl; [exact W | congruence]).
    destruct (IH (mkClone (st c) (update (refs c) d y))) as (c' & R & M).
    + apply wf_clone_update; [exact W | exact (proj2 W q y Ly)].
    + exact ND.
    + intros q' Hq' Hin. exact (Dis q' (or_intror Hq') (or_intror Hin)).
    + intros d' q' Hin. apply Below_update_other; [| | exact (Ff d' q' (or_intror Hin))].
      * intros ->. exact (Nd (in_map fst _ _ Hin)).
      * apply Nq. right. exact (in_map snd _ _ Hin).
    + exists c'. split; [exact R|]. apply (moved_onto_cons c d q y rest c' Ly Nd); [|exact M].
      intro K. exact (Nq d (or_intror K) eq_refl).
Qed.

Section Inclusion.
  (* [later a b]: b is a later destination than a in the forward-port order *)
  Variable later : name -> name -> Prop.

  Definition Incl (c : clone) : Prop :=
    forall a b x y, later a b -> lookup (refs c) a = Some x -> lookup (refs c) b = Some y -> Anc (st c) x y.

  Definition upward_closed (c : clone) (ts : list name) : Prop :=
    forall a b, In a ts -> later a b -> lookup (refs c) b <> None -> In b ts.
  Definition in_order (ts : list name) : Prop :=
    forall a b, later a b -> In a ts -> In b ts -> exists l1 l2 l3, ts = l1 ++ a :: l2 ++ b :: l3.

  Lemma Incl_stable c c' :
    Incl c -> extends (st c) (st c') ->
    (forall n m, later n m \/ later m n -> lookup (refs c') n = lookup (refs c) n) -> Incl c'.
  Proof.
    intros I E U a b x y L La Lb. rewrite (U a b (or_introl L)) in La. rewrite (U b a (or_intror L)) in Lb.
    exact (extends_Anc _ _ _ _ E (I a b x y L La Lb)).
  Qed.

  Lemma incl_after c c' ts :
    Incl c -> grows c c' ->
    (forall n, ~ In n ts -> lookup (refs c') n = lookup (refs c) n) ->
    upward_closed c ts -> (forall a b, later a b -> In a ts -> In b ts -> Below c' a b) -> Incl c'.
  Proof.
    intros I (W' & E & F & Nn) U Up P a b x' y' L La Lb.
    destruct (in_dec Nat.eq_dec b ts) as [Hb|Hb].
    - destruct (in_dec Nat.eq_dec a ts) as [Ha|Ha].
      + destruct (P a b L Ha Hb) as (x & y & Lx & Ly & A).
        rewrite La in Lx. injection Lx as <-. rewrite Lb in Ly. injection Ly as <-. exact A.
      + rewrite U in La by exact Ha.
        destruct (lookup (refs c) b) as [y|] eqn:Lyb.
        * destruct (F b y Lyb) as [y2 [Ly2 Ay]]. rewrite Lb in Ly2. injection Ly2 as <-.
          exact (Anc_trans _ _ _ _ (extends_Anc _ _ _ _ E (I a b x' y L La Lyb)) Ay).
        * rewrite (Nn b Lyb) in Lb. discriminate Lb.
    - rewrite U in Lb by exact Hb.
      destruct (in_dec Nat.eq_dec a ts) as [Ha|Ha].
      + exfalso. apply Hb. apply (Up a b Ha L). congruence.
      + rewrite U in La by exact Ha. exact (extends_Anc _ _ _ _ E (I a b x' y' L La Lb)).
  Qed.

  (* integration.py merge_integration_branches *)
  Theorem merge_integration_incl sg c pairs c' :
    wf_clone c -> Incl c -> NoDup (map fst pairs) ->
    (forall w, In w (map snd pairs) -> ~ In w (map fst pairs)) ->
    upward_closed c (map fst pairs) -> in_order (map fst pairs) ->
    merge_integration sg c pairs = Some c' ->
    Incl c' /\ grows c c' /\ forall n, ~ In n (map fst pairs) -> lookup (refs c') n = lookup (refs c) n.
  Proof.
    intros W I ND Dis Up Ord H. unfold merge_integration in H.
    destruct (run_ops_grows _ _ _ W H) as [G U].
    assert (U' : forall n, ~ In n (map fst pairs) -> lookup (refs c') n = lookup (refs c) n).
    { intros n Hn. apply U. intro Hin. apply Hn. destruct pairs as [|[t0 w0] rest]; [destruct Hin|].
      cbn in Hin |- *. destruct Hin as [<-|Hin]; [left; reflexivity | right; exact (chain_ops_dsts _ _ _ _ Hin)]. }
    split; [|split; assumption].
    assert (P : ForallOrdPairs (Below c') (map fst pairs)).
    { destruct pairs as [|[t0 w0] rest]; [constructor|].
      exact (proj1 (merge_integration_ordered sg c t0 w0 rest c' W ND (fun w Hw => Dis w (or_intror Hw)) H)). }
    apply (incl_after c c' (map fst pairs) I G U' Up).
    intros a b L Ha Hb. destruct (Ord a b L Ha Hb) as (l1 & l2 & l3 & E).
    exact (ForallOrdPairs_split _ _ P _ _ _ _ _ E).
  Qed.

(* queueing.py merge_queues *)
  Theorem merge_queues_incl c sel c' :
    wf_clone c -> Incl c -> NoDup (map fst sel) ->
    (forall q, In q (map snd sel) -> ~ In q (map fst sel)) ->
    upward_closed c (map fst sel) -> in_order (map fst sel) ->
    (forall d q, In (d, q) sel -> Below c d q) ->                       (* queue commits contain their destination *)
    (forall d1 q1 d2 q2, In (d1, q1) sel -> In (d2, q2) sel -> later d1 d2 -> Below c q1 q2) ->
    merge_queues c sel = Some c' ->
    Incl c' /\ (forall d q, In (d, q) sel -> lookup (refs c') d = lookup (refs c) q) /\
    (forall n, ~ In n (map fst sel) -> lookup (refs c') n = lookup (refs c) n) /\ st c' = st c.
  Proof.
    intros W I ND Dis Up _ Ff Qq H.
    destruct (merge_queues_ff sel c W ND Dis Ff) as (c'' & H' & S & Eq & U).
    rewrite H in H'. injection H' as <-.
    destruct (run_ops_grows _ _ _ W H) as [G _].
    split; [|split; [exact Eq | split; [exact U | exact S]]].
    apply (incl_after c c' (map fst sel) I G U Up).
    (* later-related destinations both sit on their queue commits now *)
    intros a b L Ha Hb. apply in_map_iff in Ha as ([a' qa] & <- & Ha), Hb as ([b' qb] & <- & Hb).
    destruct (Qq _ _ _ _ Ha Hb L) as (x & y & Lx & Ly & A).
    exists x, y. cbn [fst]. rewrite (Eq _ _ Ha), (Eq _ _ Hb), S. auto.
  Qed.

(* every job that only writes w/, q/ or tmp/ branches *)
  Theorem other_ops_incl c ops c' :
    wf_clone c -> Incl c ->
    (forall n, In n (map op_dst ops) -> forall m, ~ later n m /\ ~ later m n) ->
    run_ops c ops = Some c' -> Incl c'.
  Proof.
    intros W I Hd H. destruct (run_ops_grows _ _ _ W H) as [G U].
    apply (incl_after c c' (map op_dst ops) I G U).
    - intros a b Ha L. destruct (proj1 (Hd a Ha b) L).
    - intros a b L Ha. destruct (proj1 (Hd a Ha b) L).
  Qed.
End Inclusion.

Fixpoint wf_store_from (i : nat) (s : store) : bool :=
  match s with
  | [] => true
  | c :: t => forallb (fun p => p <? i) (parents c) && wf_store_from (S i) t
  end.

Definition wf_clone_b (c : clone) : bool :=
  wf_store_from 0 (st c) && forallb (fun kv => snd kv <? length (st c)) (refs c).

Lemma wf_store_from_spec s : forall i, wf_store_from i s = true ->
  forall j c, nth_error s j = Some c -> forall p, In p (parents c) -> p < i + j.
Proof.
  induction s as [|c0 t IH]; intros i H j c E p Hp; [destruct j; discriminate E|].
  cbn in H. apply andb_true_iff in H as [H0 Ht]. destruct j as [|j]; cbn in E.
  - injection E as <-. rewrite Nat.add_0_r. apply Nat.ltb_lt. exact (proj1 (forallb_forall _ _) H0 p Hp).
  - rewrite <- plus_n_Sm. exact (IH (S i) Ht j c E p Hp).
Qed.

Lemma wf_clone_b_spec c : wf_clone_b c = true -> wf_clone c.
Proof.
  intros [Hs Hr]%andb_true_iff. split; [exact (wf_store_from_spec _ 0 Hs)|].
  induction (refs c) as [|[k v] t IH]; intros n x L; cbn in L, Hr; [discriminate L|].
  apply andb_true_iff in Hr as [Hv Ht]. destruct (Nat.eqb k n); [|exact (IH Ht n x L)].
  injection L as <-. apply Nat.ltb_lt. exact Hv.
Qed.
