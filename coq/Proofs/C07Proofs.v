(* Lemmas for C07, from which Properties/C07.v derives that the model of handle_comments (Model/Reactor.v,
   registry from Generated/Facts_C07.v) meets the specification Spec/C07Spec.v for comment lists of any
   length and any text.  In order: the two forms of a comment ("@robot ..." and "/keyword ...") up to
   c07_parse_equiv; settings and the three checks of a registry (reg_ok is the one Model/Reactor.v names);
   one option handler; clause 1 (the frame, c07_changed_witness), clause 2 (c07_walk,
   c07_options_phase_walk), clause 3 (c07_unaddressed); the examples.
   Proofs/C12Proofs.v imports this file for c07_apv, rsettings, c07_get_set_same/_other, c07_init_get,
   c07_registry_ok, c07_options_phase_frame, c07_handle_options_block and c07_unaddressed. *)
From Coq Require Import List String Ascii Bool Arith NArith.
Require Import BertE.Base.Str BertE.Base.Lists BertE.Base.C07Str BertE.Generated.Facts_C07
               BertE.Model.Reactor BertE.Spec.C07Spec.
Import ListNotations.
Open Scope string_scope.

Lemma c07_in_range lo hi c : in_range lo hi c = true -> (lo <= code c <= hi)%N.
Proof. unfold in_range. intro H. apply andb_true_iff in H as [H1 H2]. split; apply N.leb_le; assumption. Qed.

Lemma c07_str_forall_smap (p q : ascii -> bool) f s :
  (forall c, p (f c) = q c) -> str_forall p (smap f s) = str_forall q s.
Proof. intro E. induction s as [|c t IH]; cbn; [reflexivity | rewrite E, IH; reflexivity]. Qed.

Lemma c07_head_is_smap (p q : ascii -> bool) f s : (forall c, p (f c) = q c) -> head_is p (smap f s) = head_is q s.
Proof. intro E. destruct s; [reflexivity | apply E]. Qed.

Lemma c07_runs_smap (p q good : ascii -> bool) f s :
  (forall c, good c = true -> p (f c) = q c) -> (forall c, q c = true -> f c = c) ->
  str_forall good s = true -> runs p (smap f s) = runs q s.
Proof.
  intros E Fx. induction s as [|c t IH]; intro H; [reflexivity|].
  cbn [str_forall] in H. apply andb_true_iff in H as [Hc Ht].
  cbn [smap runs]. rewrite (E c Hc), (IH Ht).
  replace (head_is p (smap f t)) with (head_is q t).
  - destruct (q c) eqn:Q; [rewrite (Fx c Q)|]; reflexivity.
  - destruct t as [|d u]; [reflexivity|]. cbn [str_forall] in Ht.
    apply andb_true_iff in Ht as [Hd _]. symmetry. exact (E d Hd).
Qed.

Lemma c07_kw_not_space c : is_kw c = true -> is_space c = false.
Proof.
  (* [\w=] starts at code 48, the white space of ASCII ends at 32 *)
  intro K. assert (L : (48 <= code c)%N).
  { unfold is_kw, is_word, is_digit, is_lower, is_upper in K.
    repeat (apply orb_true_iff in K as [K|K]).
    - apply c07_in_range in K as [K _]. exact K.
    - apply c07_in_range in K as [K _]. refine (N.le_trans 48 97 _ _ K). discriminate.
    - apply c07_in_range in K as [K _]. refine (N.le_trans 48 65 _ _ K). discriminate.
    - apply Ascii.eqb_eq in K. subst c. discriminate.
    - apply Ascii.eqb_eq in K. subst c. discriminate. }
  destruct (is_space c) eqn:S; [|reflexivity]. exfalso. unfold is_space in S.
  assert (U : (code c <= 32)%N).
  { apply orb_true_iff in S as [S|S]; apply c07_in_range in S as [_ S]; [|exact S].
    refine (N.le_trans _ 13 _ S _). discriminate. }
  (* 48 <= 32 unfolds to Gt <> Gt *)
  exact (N.le_trans _ _ _ L U eq_refl).
Qed.

Lemma c07_kw_not_punct c : is_kw c = true -> has_char c ",.-/:;|+" = false.
Proof. intro K. apply (str_forall_no_char (fun d => negb (is_kw d))); [reflexivity | rewrite K; reflexivity]. Qed.

Lemma c07_punct c : has_char c ",.-/:;|+" = has_char c ",.-:;|+" || mark c.
Proof.
  change ",.-/:;|+" with (",.-" ++ String "/" ":;|+"). change ",.-:;|+" with (",.-" ++ ":;|+").
  rewrite !has_char_app. change (has_char c (String "/" ":;|+")) with (("/" =? c)%char || has_char c ":;|+").
  unfold mark. rewrite (Ascii.eqb_sym c).
  destruct (has_char c ",.-"), ("/" =? c)%char, (has_char c ":;|+"); reflexivity.
Qed.

Lemma c07_clean_space c : is_space (clean_char c) = at_sep c.
Proof.
  unfold clean_char, at_sep, sep_char. rewrite c07_punct, <- orb_assoc, (orb_comm (is_space c)).
  destruct (has_char c ",.-:;|+" || mark c); reflexivity.
Qed.

Lemma c07_clean_kw c : is_kw (clean_char c) = is_kw c.
Proof.
  unfold clean_char. destruct (has_char c ",.-/:;|+") eqn:U; [|reflexivity].
  destruct (is_kw c) eqn:K; [|reflexivity]. rewrite (c07_kw_not_punct c K) in U. discriminate U.
Qed.

Lemma c07_kw_char c : is_kw c = true -> at_sep c = false /\ clean_char c = c.
Proof.
  intro K. pose proof (c07_kw_not_punct c K) as U. split; [|unfold clean_char; rewrite U; reflexivity].
  unfold at_sep, sep_char. rewrite (c07_kw_not_space c K). rewrite c07_punct in U. exact U.
Qed.

Lemma c07_space_not_kwrun : is_space " " = true.
Proof. reflexivity. Qed.

Definition c07_request_char (c : ascii) : bool := at_sep c || is_kw c.

Lemma c07_split_cleaned s : str_forall c07_request_char s = true -> split_ws (smap clean_char s) = runs is_kw s.
Proof.
  apply c07_runs_smap; [|intros c K; exact (proj2 (c07_kw_char c K))].
  intros c G. rewrite c07_clean_space. unfold c07_request_char in G.
  destruct (is_kw c) eqn:K; [rewrite (proj1 (c07_kw_char c K)); reflexivity|].
  rewrite orb_false_r in G. rewrite G. reflexivity.
Qed.

Lemma c07_kw_regex_at_body rest : kw_regex (smap clean_char rest) = at_body rest.
Proof.
  unfold kw_regex, at_body.
  rewrite (c07_head_is_smap _ at_sep), (c07_str_forall_smap is_space at_sep),
          (c07_str_forall_smap _ (fun c => at_sep c || is_kw c)); try exact c07_clean_space; [reflexivity|].
  intro c. rewrite c07_clean_space, c07_clean_kw. reflexivity.
Qed.

Lemma c07_sl_run s : forall st,
  sl_accept (sl_run st s) = match st with
                            | SlStart => slash_line s
                            | SlSlash => g_word false s
                            | SlWord => g_word true s
                            | SlSep b => g_seps b s
                            | SlFail => false
                            end.
Proof.
  induction s as [|c t IH]; intro st; [destruct st; reflexivity|].
  cbn [sl_run]. rewrite IH.
  destruct st; cbn [sl_step slash_line g_word g_seps]; change (sep_char c) with (is_sep2 c); unfold mark.
  - destruct (c =? "/")%char; reflexivity.
  - destruct (is_kw c); reflexivity.
  - destruct (is_kw c); [reflexivity|]. destruct (is_sep2 c); reflexivity.
  - destruct (is_sep2 c); [reflexivity|]. destruct (c =? "/")%char; reflexivity.
  - reflexivity.
Qed.

Lemma c07_sl_step_bad st c : c07_request_char c = false -> sl_step st c = SlFail.
Proof.
  unfold c07_request_char, at_sep. intro H. apply orb_false_iff in H as [H K]. apply orb_false_iff in H as [S M].
  destruct st; cbn [sl_step]; change (is_sep2 c) with (sep_char c); change (c =? "/")%char with (mark c);
    rewrite ?K, ?S, ?M; reflexivity.
Qed.

Lemma c07_sl_accept_good s : forall st, sl_accept (sl_run st s) = true -> str_forall c07_request_char s = true.
Proof.
  induction s as [|c t IH]; intros st H; [reflexivity|].
  cbn [sl_run] in H. cbn [str_forall]. destruct (c07_request_char c) eqn:G; [exact (IH _ H)|].
  rewrite (c07_sl_step_bad st c G), c07_sl_run in H. discriminate H.
Qed.

Lemma c07_slash_head raw : slash_line raw = true ->
  exists d t, raw = String "/" (String d t) /\ is_kw d = true.
Proof.
  destruct raw as [|c [|d t]]; cbn [slash_line g_word]; [discriminate | rewrite andb_false_r; discriminate |].
  unfold mark. destruct (Ascii.eqb_spec c "/") as [->|]; [|discriminate].
  destruct (is_kw d) eqn:K; [|discriminate]. intros _. exists d, t. split; [reflexivity | exact K].
Qed.

(* String " " raw is canonical_raw = " " + raw of Reactor.handle_options *)
Lemma c07_slash_at_body raw : slash_line raw = true -> at_body (String " " raw) = true.
Proof.
  intro H. pose proof (c07_sl_accept_good raw SlStart (eq_trans (c07_sl_run raw SlStart) H)) as G.
  destruct (c07_slash_head raw H) as (d & t & E & K).
  unfold at_body. cbn [head_is str_forall]. change (at_sep " ") with true. cbn [orb andb].
  fold c07_request_char. rewrite G. subst raw. cbn [str_forall].
  rewrite (proj1 (c07_kw_char d K)), andb_false_r. reflexivity.
Qed.

Theorem c07_parse_equiv robot text : option_keywords (address robot) text = request robot text.
Proof.
  assert (B : forall b, (if kw_regex (smap clean_char b) then Some (split_ws (smap clean_char b)) else None)
                        = if at_body b then Some (runs is_kw b) else None).
  { intro b. rewrite c07_kw_regex_at_body. destruct (at_body b) eqn:B; [|reflexivity].
    rewrite c07_split_cleaned; [reflexivity|]. unfold at_body in B.
    apply andb_true_iff in B as [B _]. apply andb_true_iff in B as [_ B]. exact B. }
  unfold option_keywords, request, slash_syntax. rewrite c07_sl_run.
  destruct (strip_prefix (address robot) (strip text)) as [rest|]; [apply B|].
  destruct (slash_line (strip text)) eqn:S; [|reflexivity].
  cbv zeta. rewrite B, (c07_slash_at_body _ S). reflexivity.
Qed.

Lemma c07_key_of w : kw_key w = key_of w.
Proof.
  unfold kw_key, key_of. induction w as [|d t IH]; [reflexivity|].
  cbn [split_char span]. destruct (d =? "=")%char; cbn [negb]; [reflexivity|].
  pose proof (split_char_nonempty "=" t) as Hne.
  destruct (split_char "=" t) as [|x r]; [contradiction|].
  cbn [hd] in *. destruct (span (fun c => negb (c =? "=")%char) t) as [a b]. cbn [fst] in *.
  rewrite IH. reflexivity.
Qed.

Lemma c07_args_count w : List.length (kw_args w) = eq_count w.
Proof. unfold kw_args, eq_count. destruct (split_char "=" w); cbn; [|rewrite Nat.sub_0_r]; reflexivity. Qed.

Lemma c07_request_addressed robot text ws : request robot text = Some ws -> addressed robot text = true.
Proof.
  unfold request, addressed, starts_with.
  destruct (strip_prefix (address robot) (strip text)) as [rest|]; [reflexivity|].
  destruct (slash_line (strip text)) eqn:S; [|discriminate].
  intros _. destruct (c07_slash_head _ S) as (d & t & E & K). rewrite E. cbn. exact K.
Qed.

Lemma c07_names_addressed robot text o : names robot text o = true -> addressed robot text = true.
Proof.
  unfold names. destruct (request robot text) as [ws|] eqn:R; [|discriminate].
  intros _. exact (c07_request_addressed _ _ _ R).
Qed.

Lemma c07_unaddressed_ignored robot text : addressed robot text = false ->
  option_keywords (address robot) text = None /\ command_call (address robot) text = None.
Proof.
  intro A. split.
  - rewrite c07_parse_equiv. destruct (request robot text) as [ws|] eqn:R; [|reflexivity].
    rewrite (c07_request_addressed _ _ _ R) in A. discriminate A.
  - unfold addressed, starts_with in A. unfold command_call.
    destruct (strip_prefix (address robot) (strip text)); [discriminate A|]. cbn [orb] in A.
    destruct (strip text) as [|c0 [|c1 t]]; try reflexivity.
    unfold mark in A. destruct (c0 =? "/")%char; [|reflexivity]. cbn [andb] in *.
    unfold is_kw in A. apply orb_false_iff in A as [A _]. rewrite A. reflexivity.
Qed.

Lemma c07_get_set k k' v s :
  get_setting k (set_setting k' v s) = if (k' =? k)%string then Some v else get_setting k s.
Proof.
  induction s as [|[k2 v2] t IH]; cbn [set_setting get_setting]; [reflexivity|].
  destruct (String.eqb_spec k2 k') as [->|N]; cbn [get_setting]; [destruct (k' =? k)%string; reflexivity|].
  rewrite IH. destruct (String.eqb_spec k2 k) as [->|]; [|reflexivity].
  destruct (String.eqb_spec k' k); [contradiction N; congruence | reflexivity].
Qed.

Lemma c07_get_set_same k v s : get_setting k (set_setting k v s) = Some v.
Proof. rewrite c07_get_set, String.eqb_refl. reflexivity. Qed.

Lemma c07_get_set_other k k' v s : k' <> k -> get_setting k (set_setting k' v s) = get_setting k s.
Proof. intro N. rewrite c07_get_set. destruct (String.eqb_spec k' k); [contradiction | reflexivity]. Qed.

Lemma c07_init_get reg cmdline k :
  get_setting k (init_settings reg cmdline)
  = option_map (default_of cmdline) (find (fun e => is_option e && (e_key e =? k)%string) reg).
Proof.
  induction reg as [|e t IH]; [reflexivity|]. cbn [init_settings find].
  destruct (is_option e); cbn [andb]; [|exact IH].
  rewrite c07_get_set, IH. destruct (e_key e =? k)%string; reflexivity.
Qed.

Lemma c07_dispatch_some reg k e : dispatch reg k = Some e -> In e reg /\ e_key e = k.
Proof.
  unfold dispatch. intro H. apply find_some in H as [I E]. split; [exact I | apply String.eqb_eq; exact E].
Qed.

(* every entry is registered under the kind its handler belongs to; the custom option handler
   writes the key it is registered under *)
Definition entry_ok (e : entry) : bool :=
  match e_kind e, e_handler e with
  | KOption, HSetOption => negb (e_key e =? "after_pull_request")%string
  | KOption, HAfterPullRequest => (e_key e =? "after_pull_request")%string
  | KCommand, (HHelp | HStatus | HNotImplemented | HReset | HForceReset) => true
  | _, _ => false
  end.
Definition reg_ok (reg : list entry) : bool := forallb entry_ok reg.

Lemma c07_entry_ok reg e : reg_ok reg = true -> In e reg -> entry_ok e = true.
Proof. intros ROK I. unfold reg_ok in ROK. rewrite forallb_forall in ROK. exact (ROK e I). Qed.

(* the flags of the registry are the ones the statement gives: bypass_* privileged, approve author-only *)
Definition flags_ok (reg : list entry) : bool :=
  forallb (fun e => if is_option e
                    then Bool.eqb (e_priv e) (privileged_keyword (e_key e))
                         && Bool.eqb (e_auth e) (author_only_keyword (e_key e))
                    else true) reg.

Lemma c07_flags reg e : flags_ok reg = true -> In e reg -> is_option e = true ->
  e_priv e = privileged_keyword (e_key e) /\ e_auth e = author_only_keyword (e_key e).
Proof.
  intros F I IO. unfold flags_ok in F. rewrite forallb_forall in F.
  specialize (F e I). rewrite IO in F. apply andb_true_iff in F as [F1 F2].
  split; apply Bool.eqb_prop; assumption.
Qed.

(* Dispatcher is a dict: no later entry under the key of an earlier one *)
Fixpoint keys_unique (reg : list entry) : bool :=
  match reg with
  | [] => true
  | e :: t => match dispatch t (e_key e) with None => keys_unique t | Some _ => false end
  end.

Lemma c07_mem_keys p reg k : keys_unique reg = true ->
  mem_str k (map e_key (filter p reg)) = match dispatch reg k with Some e => p e | None => false end.
Proof.
  induction reg as [|e t IH]; intro U; [reflexivity|].
  cbn [keys_unique] in U. destruct (dispatch t (e_key e)) eqn:D; [discriminate U|]. specialize (IH U).
  unfold dispatch. cbn [find filter]. fold (dispatch t k).
  destruct (String.eqb_spec (e_key e) k) as [<-|N].
  - rewrite D in IH. destruct (p e); [|exact IH].
    unfold mem_str. cbn [map existsb]. rewrite String.eqb_refl. reflexivity.
  - rewrite <- IH. destruct (p e); [|reflexivity].
    unfold mem_str. cbn [map existsb]. destruct (String.eqb_spec k (e_key e)) as [E|]; [|reflexivity].
    contradiction N. symmetry. exact E.
Qed.

Lemma c07_registry_ok : reg_ok registry = true.
Proof. vm_compute. reflexivity. Qed.

Lemma c07_registry_flags : flags_ok registry = true.
Proof. vm_compute. reflexivity. Qed.

Lemma c07_registry_unique : keys_unique registry = true.
Proof. vm_compute. reflexivity. Qed.

Definition rsettings (r : rresult) : settings := match r with ROk s => s | RErr _ s => s end.

(* job.settings.after_pull_request is a set all along (so that its handler never fails otherwise) *)
Definition c07_apv (s : settings) : Prop := exists l, get_setting "after_pull_request" s = Some (VSet l).

Lemma c07_init_apv cmdline : c07_apv (init_settings registry cmdline).
Proof. exists []. rewrite c07_init_get. reflexivity. Qed.

Definition c07_blocking (e : error) : bool :=
  match e with EMsg cls => blocking_class cls | EUncaught _ => false end.
Definition c07_rblocking (r : rerror) : bool := c07_blocking (translate options_except r).

(* the argument counts the statement speaks of: keyword or keyword=arg, after_pull_request=arg *)
Definition c07_arity_ok (k : string) (n : nat) : bool :=
  if (k =? "after_pull_request")%string then Nat.eqb n 1 else Nat.leb n 1.

Lemma c07_option_handler e : entry_ok e = true -> is_option e = true ->
  e_handler e = if (e_key e =? "after_pull_request")%string then HAfterPullRequest else HSetOption.
Proof.
  unfold entry_ok, is_option. destruct (e_kind e); [|discriminate].
  destruct (e_handler e); intros OK _; try discriminate OK; [apply negb_true_iff in OK|]; rewrite OK; reflexivity.
Qed.

Section RunOption.
  Variables (e : entry) (args : list string) (s : settings).
  Hypothesis OK : entry_ok e = true.
  Hypothesis IO : is_option e = true.

  Lemma c07_run_option_frame o : e_key e <> o -> get_setting o (rsettings (run_option e args s)) = get_setting o s.
  Proof.
    intro N. unfold run_option. rewrite (c07_option_handler e OK IO).
    destruct (String.eqb_spec (e_key e) "after_pull_request") as [E|_].
    - destruct args as [|a [|b r]]; try reflexivity. destruct (py_int_ok a); [|reflexivity].
      destruct (get_setting "after_pull_request" s) as [[| | |l]|]; try reflexivity.
      apply c07_get_set_other. rewrite <- E. exact N.
    - destruct args as [|a [|b r]]; try reflexivity; apply c07_get_set_other; exact N.
  Qed.

  Lemma c07_run_option_block : c07_apv s ->
    match run_option e args s with
    | ROk s' => c07_apv s' /\ c07_arity_ok (e_key e) (List.length args) = true
    | RErr r _ => c07_rblocking r = true /\ c07_arity_ok (e_key e) (List.length args) = false
    end.
  Proof.
    intros [l AP]. unfold run_option, c07_arity_ok. rewrite (c07_option_handler e OK IO).
    destruct (String.eqb_spec (e_key e) "after_pull_request") as [_|N].
    - destruct args as [|a [|b r]]; try (split; reflexivity). rewrite AP.
      destruct (py_int_ok a); (split; [|reflexivity]); [eexists; apply c07_get_set_same | exists l; exact AP].
    - destruct args as [|a [|b r]]; try (split; reflexivity);
        (split; [|reflexivity]); exists l; rewrite c07_get_set_other; assumption.
  Qed.
End RunOption.

Section KeywordsFrame.
  Variable reg : list entry.
  Hypothesis ROK : reg_ok reg = true.
  Variables P A : bool.
  Variable o : string.

  Definition c07_barred : Prop :=
    forall e, dispatch reg o = Some e -> is_option e = true -> (e_priv e && negb P) || (e_auth e && negb A) = true.

  Lemma c07_apply_keywords_frame kws : forall first s,
    (forall w, In w kws -> kw_key w = o -> c07_barred) ->
    get_setting o (rsettings (apply_keywords reg P A first kws s)) = get_setting o s.
  Proof.
    induction kws as [|kwd rest IH]; intros first s U; [reflexivity|].
    cbn [apply_keywords].
    destruct (dispatch reg (kw_key kwd)) as [e|] eqn:D; [|reflexivity].
    destruct (c07_dispatch_some _ _ _ D) as [I K].
    destruct (is_option e) eqn:IO; [|destruct first; reflexivity].
    destruct (e_priv e && negb P) eqn:CP; [reflexivity|].
    destruct (e_auth e && negb A) eqn:CA; [reflexivity|].
    assert (N : e_key e <> o).
    { rewrite K. intro E. rewrite E in D. pose proof (U kwd (or_introl eq_refl) E e D IO) as X.
      rewrite CP, CA in X. discriminate X. }
    pose proof (c07_run_option_frame e (kw_args kwd) s (c07_entry_ok reg e ROK I) IO o N) as F.
    destruct (run_option e (kw_args kwd) s) as [s1|r s1]; cbn [rsettings] in F |- *; [|exact F].
    rewrite (IH false s1 (fun w I' => U w (or_intror I'))). exact F.
  Qed.
End KeywordsFrame.

(* clause 1: an option keeps its default unless a comment that may set it names it *)

Section Frame.
  Variable reg : list entry.
  Variable robot : string.
  Variable admins : list string.
  Variable pr_author : string.
  Variable o : string.
  Hypothesis ROK : reg_ok reg = true.

  Definition c07_harmless (c : comment) : Prop :=
    names robot (c_text c) o = false
    \/ c07_barred reg (is_privileged admins pr_author (c_author c)) (c_author c =? pr_author)%string o.

  Lemma c07_handle_options_frame c s : c07_harmless c ->
    get_setting o (rsettings (handle_options reg (address robot) (is_privileged admins pr_author (c_author c))
                                             (c_author c =? pr_author)%string (c_text c) s)) = get_setting o s.
  Proof.
    intro H. unfold handle_options.
    destruct (option_keywords (address robot) (c_text c)) as [kws|] eqn:K; [|reflexivity].
    apply c07_apply_keywords_frame; [exact ROK|]. intros w I E.
    destruct H as [H|H]; [|exact H]. unfold names in H. rewrite <- c07_parse_equiv, K in H.
    pose proof (proj1 (existsb_false_iff _ _) H w I) as X. cbv beta in X.
    rewrite <- c07_key_of, E, String.eqb_refl in X. discriminate X.
  Qed.

  Lemma c07_options_phase_frame cs : forall s,
    (forall c, In c cs -> c07_harmless c) ->
    get_setting o (settings_of (options_phase reg (address robot) admins pr_author cs s)) = get_setting o s.
  Proof.
    induction cs as [|c t IH]; intros s H; [reflexivity|].
    cbn [options_phase].
    pose proof (c07_handle_options_frame c s (H c (or_introl eq_refl))) as F.
    destruct (handle_options reg (address robot) (is_privileged admins pr_author (c_author c))
                             (c_author c =? pr_author)%string (c_text c) s) as [s1|r s1]; cbn [rsettings] in F.
    - rewrite IH; [exact F | intros c' I; apply H; right; exact I].
    - exact F.
  Qed.

  (* so, whatever handle_comments ends in, a changed option is named by a comment addressed to the robot
     whose writer is not barred.  "Not barred" is given as a boolean test [may] of comments, so that the
     comment can be found by search: the admin who is not the author for C07_priv, the author for C07_auth *)
  Lemma c07_changed_witness cmdline cs (may : comment -> bool) :
    (forall c, may c = false ->
               c07_barred reg (is_privileged admins pr_author (c_author c)) (c_author c =? pr_author)%string o) ->
    get_setting o (settings_of (handle_comments reg cmdline robot admins pr_author cs))
      <> get_setting o (init_settings reg cmdline) ->
    exists c, In c cs /\ addressed robot (c_text c) = true /\ names robot (c_text c) o = true /\ may c = true.
  Proof.
    intros HL Hne. destruct (existsb (fun c => names robot (c_text c) o && may c) cs) eqn:W.
    - apply existsb_exists in W as (c & I & H). apply andb_true_iff in H as [N H].
      exists c. repeat split; try assumption. exact (c07_names_addressed _ _ _ N).
    - exfalso. apply Hne.
      transitivity (get_setting o (settings_of (options_result reg cmdline robot admins pr_author cs))).
      { unfold handle_comments. destruct (options_result reg cmdline robot admins pr_author cs); [|reflexivity].
        destruct (commands_scan reg _ robot admins pr_author (rev cs)); reflexivity. }
      apply c07_options_phase_frame. intros c I.
      pose proof (proj1 (existsb_false_iff _ _) W c I) as X. cbv beta in X.
      destruct (names robot (c_text c) o) eqn:N; [|left; exact N]. right. apply HL. exact X.
  Qed.
End Frame.

(* clause 2: what must block, and with which explanation *)

(* the judge of the specification, read off the registry and the rights of the writer *)
Definition c07_verdict (reg : list entry) (P A : bool) (w : string) : item_verdict :=
  match dispatch reg (kw_key w) with
  | None => IUnknown
  | Some e =>
      if is_option e then
        if e_priv e && negb P then INotPrivileged
        else if e_auth e && negb A then INotAuthor
        else if c07_arity_ok (kw_key w) (eq_count w) then IFine else ISilent
      else ISilent
  end.

Definition c07_head_not_command (reg : list entry) (kws : list string) : bool :=
  match kws with
  | [] => true
  | w :: _ => match dispatch reg (kw_key w) with Some e => is_option e | None => true end
  end.

Lemma c07_walk_fine opts cmds admins pr_author who items :
  walk_items opts cmds admins pr_author who items = WFine ->
  existsb (fun w => wrong (judge opts cmds admins pr_author who w)) items = false.
Proof.
  induction items as [|w r IH]; [reflexivity|]. cbn [walk_items existsb].
  destruct (judge opts cmds admins pr_author who w); try discriminate. exact IH.
Qed.

Section Block.
  Variable reg : list entry.
  Variable robot : string.
  Variable admins : list string.
  Variable pr_author : string.
  Hypothesis ROK : reg_ok reg = true.
  Hypothesis FOK : flags_ok reg = true.
  Hypothesis UOK : keys_unique reg = true.

  Lemma c07_judge_verdict who w :
    judge (option_names reg) (command_names reg) admins pr_author who w
    = c07_verdict reg (is_privileged admins pr_author who) (who =? pr_author)%string w.
  Proof.
    unfold judge, c07_verdict, option_names, command_names. rewrite <- c07_key_of, !c07_mem_keys by exact UOK.
    destruct (dispatch reg (kw_key w)) as [e|] eqn:D; [|reflexivity].
    destruct (c07_dispatch_some _ _ _ D) as [I K].
    destruct (is_option e) eqn:IO; [|reflexivity].
    destruct (c07_flags reg e FOK I IO) as [-> ->]. rewrite K. unfold c07_arity_ok.
    destruct (kw_key w =? "after_pull_request")%string; reflexivity.
  Qed.

  Lemma c07_option_request_model text :
    match option_request robot (command_names reg) text with
    | Some items => option_keywords (address robot) text = Some items /\ c07_head_not_command reg items = true
    | None => forall P A s, handle_options reg (address robot) P A text s = ROk s
    end.
  Proof.
    unfold option_request, handle_options, command_names. rewrite c07_parse_equiv.
    destruct (request robot text) as [[|w0 ws]|]; try reflexivity.
    rewrite c07_mem_keys, <- c07_key_of by exact UOK. cbn [apply_keywords].
    destruct (dispatch reg (kw_key w0)) as [e|] eqn:D; [destruct (is_option e) eqn:IO|];
      cbn [negb c07_head_not_command]; rewrite ?D, ?IO; try split; reflexivity.
  Qed.

  Lemma c07_walk who items : forall first s, c07_apv s ->
    (first = true -> c07_head_not_command reg items = true) ->
    match apply_keywords reg (is_privileged admins pr_author who) (who =? pr_author)%string first items s with
    | ROk s' => c07_apv s' /\ walk_items (option_names reg) (command_names reg) admins pr_author who items = WFine
    | RErr r _ => c07_rblocking r = true /\
                  match walk_items (option_names reg) (command_names reg) admins pr_author who items with
                  | WFine => False
                  | WBlock cls => translate options_except r = EMsg cls
                  | WSilent => True
                  end
    end.
  Proof.
    induction items as [|w rest IH]; intros first s AP HN; [split; [exact AP | reflexivity]|].
    cbn [walk_items apply_keywords c07_head_not_command] in HN |- *. rewrite c07_judge_verdict. unfold c07_verdict.
    destruct (dispatch reg (kw_key w)) as [e|] eqn:D; [|split; reflexivity].
    destruct (c07_dispatch_some _ _ _ D) as [I K].
    destruct (is_option e) eqn:IO.
    - destruct (e_priv e && negb _); [split; reflexivity|].
      destruct (e_auth e && negb _); [split; reflexivity|].
      pose proof (c07_run_option_block e (kw_args w) s (c07_entry_ok reg e ROK I) IO AP) as RB.
      rewrite K, c07_args_count in RB.
      destruct (run_option e (kw_args w) s) as [s1|r s1]; destruct RB as [R1 ->].
      + apply (IH false s1 R1). discriminate.
      + split; [exact R1 | exact Logic.I].
    - destruct first; [discriminate (HN eq_refl) | split; [reflexivity | exact Logic.I]].
  Qed.

  Lemma c07_options_phase_walk cs : forall s, c07_apv s ->
    match options_phase reg (address robot) admins pr_author cs s with
    | Ok s' => c07_apv s'
               /\ must_block robot (option_names reg) (command_names reg) admins pr_author cs = false
               /\ expected_block robot (option_names reg) (command_names reg) admins pr_author cs = None
    | Err e _ => c07_blocking e = true
                 /\ forall cls, expected_block robot (option_names reg) (command_names reg) admins pr_author cs
                                = Some cls -> e = EMsg cls
    end.
  Proof.
    induction cs as [|c t IH]; intros s AP; [repeat split; [exact AP | reflexivity..]|].
    unfold must_block in IH |- *. cbn [options_phase existsb expected_block].
    pose proof (c07_option_request_model (c_text c)) as R.
    destruct (option_request robot (command_names reg) (c_text c)) as [items|]; [|rewrite R; exact (IH s AP)].
    destruct R as [K HN]. unfold handle_options. rewrite K.
    pose proof (c07_walk (c_author c) items true s AP (fun _ => HN)) as W.
    destruct (apply_keywords reg _ _ true items s) as [s1|r s1]; destruct W as [W1 W2].
    - rewrite (c07_walk_fine _ _ _ _ _ _ W2), W2. exact (IH s1 W1).
    - split; [exact W1|]. intros cls H.
      destruct (walk_items _ _ admins pr_author (c_author c) items); [contradiction | | discriminate H].
      injection H as <-. exact W2.
  Qed.
End Block.

Lemma c07_handle_options_block robot admins pr_author c s : c07_apv s ->
  match handle_options registry (address robot) (is_privileged admins pr_author (c_author c))
                       (c_author c =? pr_author)%string (c_text c) s with
  | ROk s' => c07_apv s'
  | RErr r _ => c07_rblocking r = true
  end.
Proof.
  intro AP.
  pose proof (c07_options_phase_walk registry robot admins pr_author c07_registry_ok c07_registry_flags
                c07_registry_unique [c] s AP) as W.
  cbn [options_phase] in W. destruct (handle_options registry _ _ _ (c_text c) s); exact (proj1 W).
Qed.

(* clause 3: text not addressed to the robot *)

Section Unaddressed.
  Variable reg : list entry.
  Variable robot : string.
  Variable admins : list string.
  Variable pr_author : string.

  Lemma c07_options_phase_skip x c1 c2 : option_keywords (address robot) (c_text x) = None ->
    forall s, options_phase reg (address robot) admins pr_author (c1 ++ x :: c2) s
              = options_phase reg (address robot) admins pr_author (c1 ++ c2) s.
  Proof.
    intro N. induction c1 as [|c t IH]; intro s.
    - cbn [app options_phase]. unfold handle_options. rewrite N. reflexivity.
    - cbn [app options_phase].
      destruct (handle_options reg (address robot) (is_privileged admins pr_author (c_author c))
                               (c_author c =? pr_author)%string (c_text c) s); [apply IH | reflexivity].
  Qed.

  Lemma c07_commands_scan_skip x l1 l2 :
    c_author x <> robot -> command_call (address robot) (c_text x) = None ->
    commands_scan reg (address robot) robot admins pr_author (l1 ++ x :: l2)
    = commands_scan reg (address robot) robot admins pr_author (l1 ++ l2).
  Proof.
    intros NR N. induction l1 as [|c t IH].
    - cbn [app commands_scan]. destruct (String.eqb_spec (c_author x) robot); [contradiction|].
      unfold handle_commands. rewrite N. reflexivity.
    - cbn [app commands_scan]. destruct (c_author c =? robot)%string; [reflexivity|].
      destruct (handle_commands reg (address robot) (is_privileged admins pr_author (c_author c)) (c_text c));
        [reflexivity | exact IH].
  Qed.
End Unaddressed.

Theorem c07_unaddressed reg cmdline robot admins pr_author c1 x c2 :
  addressed robot (c_text x) = false ->
  options_result reg cmdline robot admins pr_author (c1 ++ x :: c2)
    = options_result reg cmdline robot admins pr_author (c1 ++ c2)
  /\ (c_author x <> robot ->
      handle_comments reg cmdline robot admins pr_author (c1 ++ x :: c2)
      = handle_comments reg cmdline robot admins pr_author (c1 ++ c2)).
Proof.
  intro A. destruct (c07_unaddressed_ignored robot (c_text x) A) as [NO NC].
  unfold handle_comments, options_result. change ("@" ++ robot) with (address robot).
  rewrite (c07_options_phase_skip reg robot admins pr_author x c1 c2 NO).
  split; [reflexivity|]. intro NR. rewrite !rev_app_distr. cbn [rev]. rewrite <- app_assoc. cbn [app].
  rewrite (c07_commands_scan_skip reg robot admins pr_author x (rev c2) (rev c1) NR NC). reflexivity.
Qed.

Notation c07_opts := (option_names registry) (only parsing).
Notation c07_cmds := (command_names registry) (only parsing).

Definition c07_ex_admin := mk_comment "admin" "@robot: bypass_peer_approval".
Definition c07_ex_author_approve := mk_comment "author" "  /approve ".
Definition c07_ex_author_bypass := mk_comment "author" "@robot wait, bypass_peer_approval".
Definition c07_ex_chat := mk_comment "other" "please @robot bypass_peer_approval".

(* the hypotheses of clause 1 are met by an admin's comment; the conclusion's witness is that comment *)
Example c07_priv_nonvacuous :
  privileged_keyword "bypass_peer_approval" = true /\
  get_setting "bypass_peer_approval"
    (settings_of (handle_comments registry [] "robot" ["admin"] "author" [c07_ex_chat; c07_ex_admin]))
  <> get_setting "bypass_peer_approval" (init_settings registry []) /\
  handle_comments registry [] "robot" ["admin"] "author" [c07_ex_chat; c07_ex_admin]
  = Ok (set_setting "bypass_peer_approval" (VBool true) (init_settings registry [])).
Proof.
  assert (E : handle_comments registry [] "robot" ["admin"] "author" [c07_ex_chat; c07_ex_admin]
              = Ok (set_setting "bypass_peer_approval" (VBool true) (init_settings registry [])))
    by (vm_compute; reflexivity).
  split; [reflexivity | split; [rewrite E; vm_compute; discriminate | exact E]].
Qed.

Example c07_auth_nonvacuous :
  author_only_keyword "approve" = true /\
  get_setting "approve" (settings_of (handle_comments registry [] "robot" ["admin"] "author" [c07_ex_author_approve]))
  <> get_setting "approve" (init_settings registry []).
Proof. split; [reflexivity | vm_compute; discriminate]. Qed.

(* the author asks for a bypass after a harmless option: blocked, NotEnoughCredentials; "wait" was
   already written to job.settings (it shows in the message's active options), the bypass was not *)
Example c07_block_nonvacuous :
  must_block "robot" c07_opts c07_cmds ["admin"] "author" [c07_ex_chat; c07_ex_author_bypass] = true /\
  expected_block "robot" c07_opts c07_cmds ["admin"] "author" [c07_ex_chat; c07_ex_author_bypass]
  = Some "NotEnoughCredentials" /\
  handle_comments registry [] "robot" ["admin"] "author" [c07_ex_chat; c07_ex_author_bypass]
  = Err (EMsg "NotEnoughCredentials") (set_setting "wait" (VBool true) (init_settings registry [])).
Proof. split; [|split]; vm_compute; reflexivity. Qed.

Example c07_unaddressed_nonvacuous :
  addressed "robot" (c_text c07_ex_chat) = false /\ addressed "robot" (c_text c07_ex_admin) = true /\
  addressed "robot" "@robotxyz" = true /\ request "robot" "@robotxyz" = None /\
  addressed "robot" "/approve," = true /\ request "robot" "/approve," = None /\
  request "robot" "@robot approve," = Some ["approve"] /\
  request "robot" " /approve , /wait=1 " = Some ["approve"; "wait=1"].
Proof. do 7 (split; [vm_compute; reflexivity|]). vm_compute. reflexivity. Qed.
