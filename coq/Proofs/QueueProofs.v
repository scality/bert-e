(* The queue invariants that merge_queues_incl / queue_merge_green assume are Bert-E's own work: add_to_queue
   establishes them on the clone (add_to_queue_spec) and keeps the invariant QueuesWF over a description of the
   queues (Model/Queues.v), which gives those hypotheses for every prefix selection (wf_selection_hyps,
   queue_cycle_incl).  The description is a device of the proof and is not extracted; what is compared with the
   running code are the conclusions of add_to_queue_spec (harness/lib/sysrun.py).  [later], the forward-port order
   of the destination branches, is a parameter throughout; the rank of an entry is its place in the order of
   queueing.  Imported by JobProofs (add_to_queue_spec) and by Properties/C01.v and C03.v. *)
From Coq Require Import List Bool Arith Lia Sorted.
Require Import BertE.Model.Git BertE.Model.Flow BertE.Model.Queues.
Require Import BertE.Proofs.GitProofs BertE.Proofs.FlowProofs BertE.Proofs.C03Proofs.
Import ListNotations.

Lemma find_key_some {A} (key : A -> nat) l d x : find (fun y => Nat.eqb (key y) d) l = Some x -> In x l /\ key x = d.
Proof. intros [Hin E%Nat.eqb_eq]%find_some. split; assumption. Qed.

Lemma find_key_complete {A} (key : A -> nat) l x :
  NoDup (map key l) -> In x l -> find (fun y => Nat.eqb (key y) (key x)) l = Some x.
Proof.
  intros ND Hin. destruct (find (fun y => Nat.eqb (key y) (key x)) l) as [x0|] eqn:F.
  - apply find_key_some in F as [Hin0 E]. f_equal. exact (NoDup_map_inj key l x0 x ND Hin0 Hin E).
  - pose proof (find_none _ _ F x Hin) as E. cbn in E. rewrite Nat.eqb_refl in E. discriminate E.
Qed.

Lemma In_insert {A} (x y : A) l1 l2 : In y (l1 ++ x :: l2) <-> y = x \/ In y (l1 ++ l2).
Proof. rewrite !in_app_iff. cbn. intuition congruence. Qed.

Lemma In_map_insert {A B} (f : A -> B) (x : A) l1 l2 n :
  In n (map f (l1 ++ x :: l2)) <-> n = f x \/ In n (map f (l1 ++ l2)).
Proof. rewrite !map_app. cbn [map]. apply In_insert. Qed.

Lemma NoDup_map_insert {A B} (f : A -> B) (x : A) l1 l2 :
  NoDup (map f (l1 ++ l2)) -> ~ In (f x) (map f (l1 ++ l2)) -> NoDup (map f (l1 ++ x :: l2)).
Proof.
  rewrite !map_app. cbn [map]. intros ND Hn.
  apply (proj2 (NoDup_Add (Add_app (f x) (map f l1) (map f l2)))). split; assumption.
Qed.

Lemma map_split2 {A B} (f : A -> B) l a b l1 l2 l3 :
  NoDup (map f l) -> In a l -> In b l -> map f l = l1 ++ f a :: l2 ++ f b :: l3 ->
  exists L1 L2 L3, l = L1 ++ a :: L2 ++ b :: L3.
Proof.
  intros ND Ha Hb H. apply map_eq_app in H as (L1 & R1 & -> & _ & H).
  apply map_eq_cons in H as (a' & R2 & -> & Fa & H).
  apply map_eq_app in H as (L2 & R3 & -> & _ & H).
  apply map_eq_cons in H as (b' & L3 & -> & Fb & _).
  assert (a' = a) by (apply (NoDup_map_inj f _ _ _ ND); [apply in_elt | exact Ha | exact Fa]).
  assert (b' = b) by (apply (NoDup_map_inj f _ _ _ ND); [apply in_or_app; right; right; apply in_elt | exact Hb | exact Fb]).
  subst a' b'. exists L1, L2, L3. reflexivity.
Qed.

Lemma ordpairs_map_pick {A} (f g : A -> nat) (R : nat -> nat -> Prop) l l1 x l2 y l3 a b :
  NoDup (map f l) -> map f l = l1 ++ x :: l2 ++ y :: l3 ->
  In a l -> f a = x -> In b l -> f b = y ->
  ForallOrdPairs R (map g l) -> R (g a) (g b).
Proof.
  intros ND E Ha <- Hb <- P. destruct (map_split2 f l a b _ _ _ ND Ha Hb E) as (L1 & L2 & L3 & ->).
  rewrite map_app in P. cbn [map] in P. rewrite map_app in P.
  exact (ForallOrdPairs_split R _ P _ _ _ _ _ eq_refl).
Qed.

Definition tq (t : name * name * name) : name := fst (fst t).
Definition tw (t : name * name * name) : name := snd (fst t).
Definition ti (t : name * name * name) : name := snd t.

Definition grows_except (ex : list name) (c c' : clone) : Prop :=
  wf_clone c' /\ extends (st c) (st c') /\
  (forall n x, ~ In n ex -> lookup (refs c) n = Some x ->
               exists y, lookup (refs c') n = Some y /\ Anc (st c') x y) /\
  (forall n, ~ In n ex -> lookup (refs c) n = None -> lookup (refs c') n = None).

Lemma grows_grows_except ex c c' : grows c c' -> grows_except ex c c'.
Proof.
  intros (W & E & F & N). split; [exact W|]. split; [exact E|]. split.
  - intros n x _ L. exact (F n x L).
  - intros n _ L. exact (N n L).
Qed.

Lemma grows_except_trans e1 e2 a b c :
  grows_except e1 a b -> grows_except e2 b c -> grows_except (e1 ++ e2) a c.
Proof.
  intros (Wb & Eb & Fb & Nb) (Wc & Ec & Fc & Nc).
  split; [exact Wc|]. split; [exact (extends_trans _ _ _ Eb Ec)|]. split.
  - intros n x Hn L. destruct (Fb n x (fun H => Hn (in_or_app _ _ _ (or_introl H))) L) as [y [Ly Ay]].
    destruct (Fc n y (fun H => Hn (in_or_app _ _ _ (or_intror H))) Ly) as [z [Lz Az]].
    exists z. split; [exact Lz|]. exact (Anc_trans _ _ _ _ (extends_Anc _ _ _ _ Ec Ay) Az).
  - intros n Hn L. apply Nc; [|apply Nb; [|exact L]]; intro H; apply Hn, in_or_app; [right | left]; exact H.
Qed.

Lemma Below_grows_except ex c c' a b :
  grows_except ex c c' -> ~ In b ex -> lookup (refs c') a = lookup (refs c) a -> Below c a b -> Below c' a b.
Proof.
  intros (W' & E & F & _) Hb Ua (x & y & La & Lb & A).
  destruct (F b y Hb Lb) as [y' [Lb' Ay]]. exists x, y'. split; [rewrite Ua; exact La|]. split; [exact Lb'|].
  exact (Anc_trans _ _ _ _ (extends_Anc _ _ _ _ E A) Ay).
Qed.

Lemma copy_ref_spec c from to c' :
  wf_clone c -> copy_ref c from to = Some c' ->
  wf_clone c' /\ st c' = st c /\ lookup (refs c') to = lookup (refs c) from /\ lookup (refs c) from <> None /\
  (forall n, n <> to -> lookup (refs c') n = lookup (refs c) n).
Proof.
  intros W H. unfold copy_ref in H. destruct (lookup (refs c) from) as [x|] eqn:L; [|discriminate H].
  injection H as <-. split; [apply wf_clone_update; [exact W | exact (proj2 W from x L)]|].
  split; [reflexivity|]. cbn [refs]. split; [apply lookup_update_eq|]. split; [congruence|].
  intros n Hn. apply lookup_update_neq. exact Hn.
Qed.

Lemma copy_ref_grows_except c from to c' :
  wf_clone c -> copy_ref c from to = Some c' -> grows_except [to] c c'.
Proof.
  intros W H. destruct (copy_ref_spec _ _ _ _ W H) as (W' & S & _ & _ & U).
  split; [exact W'|]. split; [rewrite S; apply extends_refl|]. split.
  - intros n x Hn L. exists x. rewrite U by (intros ->; apply Hn; left; reflexivity). split; [exact L|].
    rewrite S. apply Anc_refl. exact (proj2 W n x L).
  - intros n Hn L. rewrite U by (intros ->; apply Hn; left; reflexivity). exact L.
Qed.

Definition aq_names_ok (triples : list (name * name * name)) : Prop :=
  NoDup (map tq triples) /\ NoDup (map ti triples) /\
  (forall n, In n (map tq triples) -> ~ In n (map ti triples)) /\
  (forall w, In w (map tw triples) -> ~ In w (map tq triples) /\ ~ In w (map ti triples)).

Lemma aq_names_ok_cons q w qi more : aq_names_ok ((q, w, qi) :: more) ->
  aq_names_ok more /\ q <> qi /\ w <> q /\ w <> qi /\
  (forall n, n = q \/ n = qi \/ n = w -> ~ In n (map tq more) /\ ~ In n (map ti more)).
Proof.
  intros (NDq & NDi & Dis & Ws). cbn [map tq tw ti fst snd] in NDq, NDi, Dis, Ws.
  apply NoDup_cons_iff in NDq as [Nq NDq]. apply NoDup_cons_iff in NDi as [Nqi NDi].
  destruct (Ws w (or_introl eq_refl)) as [Wq Wi]. pose proof (Dis q (or_introl eq_refl)) as Dq.
  split; [|split; [|split; [|split]]].
  - split; [exact NDq|]. split; [exact NDi|]. split.
    + intros n Hn Hi. exact (Dis n (or_intror Hn) (or_intror Hi)).
    + intros w' Hw'. destruct (Ws w' (or_intror Hw')) as [A B]. split; intro H; [apply A | apply B]; right; exact H.
  - intros ->. apply Dq. left; reflexivity.
  - intros ->. apply Wq. left; reflexivity.
  - intros ->. apply Wi. left; reflexivity.
  - intros n [->|[->| ->]]; split; intro H.
    + exact (Nq H).
    + apply Dq. right; exact H.
    + apply (Dis qi (or_intror H)). left; reflexivity.
    + exact (Nqi H).
    + apply Wq. right; exact H.
    + apply Wi. right; exact H.
Qed.

Definition aq_post (c c' : clone) (l : list (name * name * name)) : Prop :=
  grows_except (map ti l) c c' /\
  (forall n, ~ In n (map tq l) -> ~ In n (map ti l) -> lookup (refs c') n = lookup (refs c) n) /\
  (forall q w qi, In (q, w, qi) l -> lookup (refs c') qi = lookup (refs c') q /\ Below c' w qi).

Lemma aq_post_nil c : wf_clone c -> aq_post c c [].
Proof.
  intro W. split; [apply grows_grows_except, grows_refl; exact W|]. split; [reflexivity|]. intros q w qi [].
Qed.

(* one target: the merge(s) into q (c -> c1, only q moved, forward), the copy q -> qi (c1 -> c2), then the
   remaining targets (c2 -> c') *)
Lemma aq_combine c c1 c2 c' q w qi more :
  aq_names_ok ((q, w, qi) :: more) ->
  grows c c1 -> (forall n, n <> q -> lookup (refs c1) n = lookup (refs c) n) ->
  Below c1 w q -> copy_ref c1 q qi = Some c2 -> aq_post c2 c' more ->
  aq_post c c' ((q, w, qi) :: more) /\
  (forall x, x <> qi -> ~ In x (map tq more) -> ~ In x (map ti more) -> Below c1 x q -> Below c' x qi).
Proof.
  intros Ok G1 U1 Bw C (G' & U' & T').
  destruct (aq_names_ok_cons _ _ _ _ Ok) as (_ & Nqqi & Nwq & Nwqi & Fr).
  destruct (Fr q (or_introl eq_refl)) as [Nq1 Nq2].
  destruct (Fr qi (or_intror (or_introl eq_refl))) as [Nqi1 Nqi2].
  destruct (Fr w (or_intror (or_intror eq_refl))) as [Nw1 Nw2].
  destruct (copy_ref_spec _ _ _ _ (proj1 G1) C) as (W2 & S2 & Lqi & _ & U2).
  (* a branch below q after the merges is below qi at the end *)
  assert (Key : forall x, x <> qi -> ~ In x (map tq more) -> ~ In x (map ti more) -> Below c1 x q -> Below c' x qi).
  { intros x Nx H1 H2. apply Below_transport.
    - rewrite <- S2. exact (proj1 (proj2 G')).
    - rewrite (U' x H1 H2). exact (U2 x Nx).
    - rewrite (U' qi Nqi1 Nqi2). exact Lqi. }
  split; [|exact Key].
  split; [|split].
  - apply (grows_except_trans [qi] _ c c2 c'); [|exact G'].
    apply (grows_except_trans [] _ c c1 c2); [apply grows_grows_except; exact G1|].
    exact (copy_ref_grows_except _ _ _ _ (proj1 G1) C).
  - intros n [n1 n2]%not_in_cons [n3 n4]%not_in_cons. rewrite (U' n n2 n4), (U2 n n3). exact (U1 n n1).
  - intros q0 w0 qi0 [Eq|Ht]; [|exact (T' q0 w0 qi0 Ht)]. injection Eq as <- <- <-.
    split; [|exact (Key w Nwqi Nw1 Nw2 Bw)].
    rewrite (U' qi Nqi1 Nqi2), (U' q Nq1 Nq2), Lqi. symmetry. exact (U2 q Nqqi).
Qed.

(* from the merge(s) into the master queue q of one target (c -> c1) to the end: the copy q -> qi, then for
   each remaining target a strategy step on its master queue and the copy *)
Lemma aq_steps more : forall sg c c1 q w qi c',
  aq_names_ok ((q, w, qi) :: more) ->
  grows c c1 -> (forall n, n <> q -> lookup (refs c1) n = lookup (refs c) n) -> Below c1 w q ->
  match copy_ref c1 q qi with Some c2 => add_to_queue_rest sg c2 qi more | None => None end = Some c' ->
  aq_post c c' ((q, w, qi) :: more) /\ ForallOrdPairs (Below c') (qi :: map ti more) /\
  (forall x, x <> qi -> ~ In x (map tq more) -> ~ In x (map ti more) -> Below c1 x q -> Below c' x qi).
Proof.
  induction more as [|[[q' w'] qi'] more IH]; intros sg c c1 q w qi c' Ok G1 U1 Bw H.
  - destruct (copy_ref c1 q qi) as [c2|] eqn:C; [|discriminate H]. injection H as <-.
    destruct (copy_ref_spec _ _ _ _ (proj1 G1) C) as (W2 & _).
    destruct (aq_combine c c1 c2 c2 q w qi [] Ok G1 U1 Bw C (aq_post_nil c2 W2)) as [P Key].
    split; [exact P|]. split; [repeat constructor | exact Key].
  - destruct (copy_ref c1 q qi) as [c2|] eqn:C; [|discriminate H].
    destruct (copy_ref_spec _ _ _ _ (proj1 G1) C) as (W2 & _).
    cbn [add_to_queue_rest] in H. set (s0 := match sg with x :: _ => x | [] => Octopus end) in *.
    destruct (run_ops c2 (strategy_ops s0 q' w' qi)) as [c3|] eqn:S; [|discriminate H].
    destruct (aq_names_ok_cons _ _ _ _ Ok) as (Ok' & _ & _ & _ & Fr).
    destruct (Fr qi (or_intror (or_introl eq_refl))) as [[Nqiq' Nqi1]%not_in_cons [Nqiqi' Nqi2]%not_in_cons].
    destruct (aq_names_ok_cons _ _ _ _ Ok') as (_ & _ & Nw'q' & _ & _).
    destruct (strategy_merges s0 c2 q' w' qi c3 W2 (not_eq_sym Nw'q') (not_eq_sym Nqiq') S) as (G3 & U3 & Bw' & Bqi).
    destruct (IH (tl sg) c2 c3 q' w' qi' c' Ok' G3 U3 Bw' H) as (P' & O' & Key').
    destruct (aq_combine c c1 c2 c' q w qi _ Ok G1 U1 Bw C P') as [P Key].
    split; [exact P|]. split; [|exact Key].
    (* qi is below the next new branch, hence below all of them *)
    pose proof (Key' qi Nqiqi' Nqi1 Nqi2 Bqi) as Bqq.
    exact (ForallOrdPairs_trans_cons _ _ _ _ (Below_trans c') Bqq O').
Qed.

(* the clauses are lettered as in Properties/C01.v, where they are put in words; (e) and the second half of (c)
   follow from (a), the clause after it and (b) *)
Theorem add_to_queue_spec sg c triples c' :
  wf_clone c -> aq_names_ok triples -> add_to_queue sg c triples = Some c' ->
  (* (a) *)
  grows_except (map ti triples) c c' /\
  (forall n, ~ In n (map tq triples) -> ~ In n (map ti triples) -> lookup (refs c') n = lookup (refs c) n) /\
  (forall q w qi, In (q, w, qi) triples ->
     (* (b) *) lookup (refs c') qi = lookup (refs c') q /\
     (* (c) *) Below c' w qi /\ lookup (refs c') w = lookup (refs c) w /\
     (* (e) *) (forall x, ~ In x (map tq triples) -> ~ In x (map ti triples) -> Below c x q -> Below c' x qi)) /\
  (* (d) *)
  ForallOrdPairs (Below c') (map ti triples).
Proof.
  intros W Ok H.
  assert (Main : aq_post c c' triples /\ ForallOrdPairs (Below c') (map ti triples)).
  { destruct triples as [|[[q w] qi] more].
    - injection H as <-. split; [apply aq_post_nil; exact W | constructor].
    - cbn [add_to_queue] in H. destruct (merge_into c q [w]) as [c1|] eqn:M; [|discriminate H].
      destruct (aq_names_ok_cons _ _ _ _ Ok) as (_ & _ & Nwq & _).
      destruct (merge_into_spec _ _ _ _ W M) as (_ & _ & U1 & _).
      pose proof (merge_into_below c q [w] c1 w W M (or_introl eq_refl) Nwq) as Bw.
      destruct (aq_steps more sg c c1 q w qi c' Ok (merge_into_grows _ _ _ _ W M) U1 Bw H) as (P & O & _).
      split; assumption. }
  destruct Main as [(G & U & T) O]. destruct Ok as (_ & _ & Dis & Ws).
  split; [exact G|]. split; [exact U|]. split; [|exact O].
  intros q w qi Hin. destruct (T q w qi Hin) as (Lb & Bw).
  split; [exact Lb|]. split; [exact Bw|]. split.
  - destruct (Ws w (in_map tw _ _ Hin)) as [A B]. exact (U w A B).
  - (* q only moved forward, and qi ends on its tip *)
    intros x X1 X2 Bx. apply (Below_transport c' c' x q x qi (extends_refl _) eq_refl Lb).
    exact (Below_grows_except _ c c' x q G (Dis q (in_map tq _ _ Hin)) (U x X1 X2) Bx).
Qed.

Lemma find_version_spec qs d v : find_version qs d = Some v -> In v qs /\ vdest v = d.
Proof. apply find_key_some. Qed.

Lemma find_version_complete qs v : NoDup (map vdest qs) -> In v qs -> find_version qs (vdest v) = Some v.
Proof. apply find_key_complete. Qed.

Lemma find_add_spec adds d a : find_add adds d = Some a -> In a adds /\ ad a = d.
Proof. apply find_key_some. Qed.

Lemma find_add_complete adds a : NoDup (map ad adds) -> In a adds -> find_add adds (ad a) = Some a.
Proof. apply find_key_complete. Qed.

Lemma triples_of_spec qs : forall adds triples, triples_of qs adds = Some triples ->
  map ti triples = map ai adds /\ map tw triples = map aw adds /\
  (forall a, In a adds -> exists v, find_version qs (ad a) = Some v /\ In (vmaster v, aw a, ai a) triples) /\
  (forall t, In t triples -> exists a v, In a adds /\ find_version qs (ad a) = Some v /\
                                          t = (vmaster v, aw a, ai a)).
Proof.
  induction adds as [|a rest IH]; intros triples H; cbn [triples_of] in H.
  - injection H as <-. repeat split; try reflexivity; intros ? [].
  - destruct (find_version qs (ad a)) as [v|] eqn:F; [|discriminate H].
    destruct (triples_of qs rest) as [r|] eqn:R; [|discriminate H]. injection H as <-.
    destruct (IH r eq_refl) as (Ei & Ew & Fa & Ft). cbn [map ti tw fst snd].
    split; [f_equal; exact Ei|]. split; [f_equal; exact Ew|]. split.
    + intros a' [<-|Ha'].
      * exists v. split; [exact F | left; reflexivity].
      * destruct (Fa a' Ha') as (v' & F' & Hin). exists v'. split; [exact F' | right; exact Hin].
    + intros t [<-|Ht].
      * exists a, v. split; [left; reflexivity|]. split; [exact F | reflexivity].
      * destruct (Ft t Ht) as (a' & v' & Ha' & F' & Et). exists a', v'. split; [right; exact Ha'|]. tauto.
Qed.

Lemma triples_of_targets qs adds triples :
  NoDup (map vdest qs) -> NoDup (map ad adds) -> triples_of qs adds = Some triples ->
  (forall a, In a adds -> exists v, In v qs /\ find_add adds (vdest v) = Some a) /\
  (forall t, In t triples <->
             exists v a, In v qs /\ find_add adds (vdest v) = Some a /\ t = (vmaster v, aw a, ai a)).
Proof.
  intros NDd NDa T. destruct (triples_of_spec _ _ _ T) as (_ & _ & Fa & Ft).
  assert (K : forall a v, In a adds -> find_version qs (ad a) = Some v ->
                          In v qs /\ find_add adds (vdest v) = Some a).
  { intros a v Ha [Hv E]%find_version_spec. split; [exact Hv|]. rewrite E. exact (find_add_complete adds a NDa Ha). }
  split.
  - intros a Ha. destruct (Fa a Ha) as (v & F & _). exists v. exact (K a v Ha F).
  - intro t. split.
    + intro Ht. destruct (Ft t Ht) as (a & v & Ha & F & ->). exists v, a.
      destruct (K a v Ha F) as [Hv Fv]. split; [exact Hv|]. split; [exact Fv | reflexivity].
    + intros (v & a & Hv & [Ha Da]%find_add_spec & ->). destruct (Fa a Ha) as (v0 & [Hv0 Dv0]%find_version_spec & Hin).
      rewrite (NoDup_map_inj vdest qs v v0 NDd Hv Hv0); [exact Hin | congruence].
Qed.

Lemma enqueue_version_dest p adds v : vdest (enqueue_version p adds v) = vdest v.
Proof. unfold enqueue_version. destruct (find_add adds (vdest v)); reflexivity. Qed.

Lemma enqueue_version_master p adds v : vmaster (enqueue_version p adds v) = vmaster v.
Proof. unfold enqueue_version. destruct (find_add adds (vdest v)); reflexivity. Qed.

Lemma enqueue_dests p adds qs : map vdest (enqueue p adds qs) = map vdest qs.
Proof. unfold enqueue. rewrite map_map. apply map_ext. intro v. apply enqueue_version_dest. Qed.

Lemma enqueue_masters p adds qs : map vmaster (enqueue p adds qs) = map vmaster qs.
Proof. unfold enqueue. rewrite map_map. apply map_ext. intro v. apply enqueue_version_master. Qed.

Lemma enqueue_entries p adds v e : In e (ventries (enqueue_version p adds v)) <->
  In e (ventries v) \/ exists a, find_add adds (vdest v) = Some a /\ e = (p, ai a).
Proof.
  unfold enqueue_version. destruct (find_add adds (vdest v)) as [a|]; cbn [ventries snd]; split.
  - intros [<-|H]; [right; exists a; split; reflexivity | left; exact H].
  - intros [H|(a' & E & ->)]; [right; exact H | injection E as <-; left; reflexivity].
  - intro H. left. exact H.
  - intros [H|(a' & E & _)]; [exact H | discriminate E].
Qed.

Lemma queue_names_In qs n : In n (queue_names qs) <->
  In n (map vmaster qs) \/ exists v e, In v qs /\ In e (ventries v) /\ n = snd e.
Proof.
  unfold queue_names. rewrite in_app_iff, in_flat_map. split; (intros [H|H]; [left; exact H | right]).
  - destruct H as (v & Hv & (e & E & He)%in_map_iff). exists v, e. auto.
  - destruct H as (v & e & Hv & He & ->). exists v. split; [exact Hv | apply in_map; exact He].
Qed.

Lemma queue_names_master qs n : In n (map vmaster qs) -> In n (queue_names qs).
Proof. intro H. apply queue_names_In. left. exact H. Qed.

Lemma queue_names_entry qs v e : In v qs -> In e (ventries v) -> In (snd e) (queue_names qs).
Proof. intros Hv He. apply queue_names_In. right. exists v, e. auto. Qed.

Lemma all_keys_In qs k : In k (all_keys qs) <-> exists v e, In v qs /\ In e (ventries v) /\ k = fst e.
Proof.
  unfold all_keys. rewrite in_flat_map. split.
  - intros (v & Hv & (e & E & He)%in_map_iff). exists v, e. auto.
  - intros (v & e & Hv & He & ->). exists v. split; [exact Hv | apply in_map; exact He].
Qed.

Lemma queue_names_enqueue p adds qs n : In n (queue_names (enqueue p adds qs)) <->
  In n (queue_names qs) \/ exists v a, In v qs /\ find_add adds (vdest v) = Some a /\ n = ai a.
Proof.
  rewrite !queue_names_In, enqueue_masters. split.
  - intros [H|(v' & e & (v & <- & Hv)%in_map_iff & [He|(a & F & ->)]%enqueue_entries & ->)].
    + left; left; exact H.
    + left. right. exists v, e. auto.
    + right. exists v, a. auto.
  - intros [[H|(v & e & Hv & He & ->)]|(v & a & Hv & F & ->)]; [left; exact H | right | right].
    + exists (enqueue_version p adds v), e. split; [apply in_map; exact Hv|].
      split; [apply enqueue_entries; left; exact He | reflexivity].
    + exists (enqueue_version p adds v), (p, ai a). split; [apply in_map; exact Hv|].
      split; [apply enqueue_entries; right; exists a; auto | reflexivity].
Qed.

Lemma newest_upto_spec k es e : newest_upto k es = Some e -> In e es /\ fst e <= k.
Proof. intros [Hin L%Nat.leb_le]%find_some. split; assumption. Qed.

Lemma newest_upto_max es k e :
  StronglySorted (fun e1 e2 : qentry => fst e2 < fst e1) es -> newest_upto k es = Some e ->
  forall e', In e' es -> fst e' <= k -> fst e' <= fst e.
Proof.
  induction es as [|h t IH]; intros S H e' Hin Le; [destruct Hin|].
  apply StronglySorted_inv in S as [St Fh]. unfold newest_upto in H. cbn [find] in H.
  destruct (Nat.leb (fst h) k) eqn:L.
  - injection H as <-. destruct Hin as [<-|Hin]; [lia|].
    rewrite Forall_forall in Fh. specialize (Fh e' Hin). cbn in Fh. lia.
  - apply Nat.leb_gt in L. destruct Hin as [<-|Hin]; [lia|]. exact (IH St H e' Hin Le).
Qed.

Lemma sel_of_In k qs d q : In (d, q) (sel_of k qs) <->
  exists v e, In v qs /\ newest_upto k (ventries v) = Some e /\ d = vdest v /\ q = snd e.
Proof.
  unfold sel_of. rewrite in_flat_map. split.
  - intros (v & Hv & Hs). unfold select_version in Hs. destruct (newest_upto k (ventries v)) as [e|] eqn:F; [|destruct Hs].
    destruct Hs as [E|[]]. injection E as <- <-. exists v, e. auto.
  - intros (v & e & Hv & F & -> & ->). exists v. split; [exact Hv|]. unfold select_version. rewrite F. left; reflexivity.
Qed.

Lemma sel_of_entry k qs d q : In (d, q) (sel_of k qs) ->
  exists v e, In v qs /\ vdest v = d /\ In e (ventries v) /\ snd e = q /\ fst e <= k.
Proof.
  intros (v & e & Hv & [He Le]%newest_upto_spec & -> & ->)%sel_of_In. exists v, e. auto.
Qed.

Lemma sel_of_dests k qs : map fst (sel_of k qs) =
  map vdest (filter (fun v => match newest_upto k (ventries v) with Some _ => true | None => false end) qs).
Proof.
  induction qs as [|v t IH]; [reflexivity|].
  change (sel_of k (v :: t)) with (select_version k v ++ sel_of k t). rewrite map_app, IH. cbn [filter].
  unfold select_version. destruct (newest_upto k (ventries v)); reflexivity.
Qed.

Section Queues.
  (* [later a b]: b is a later destination than a in the forward-port order *)
  Variable later : name -> name -> Prop.

  (* a name the forward-port order says nothing about (every q/* name) *)
  Definition unrelated (n : name) : Prop := forall m, ~ later n m /\ ~ later m n.

  Definition names_wf (qs : qstate) : Prop :=
    NoDup (map vdest qs) /\ NoDup (map vmaster qs) /\
    (forall n, In n (queue_names qs) -> ~ In n (map vdest qs) /\ unrelated n) /\
    (forall v e, In v qs -> In e (ventries v) -> ~ In (snd e) (map vmaster qs)).

  (* one version (what _horizontal_validation looks at): the master queue is the newest entry (the
     destination tip when nothing is queued) and contains the destination; ranks decrease along the list;
     every entry contains the destination and is contained in the master; older entries are contained in
     newer ones *)
  Definition version_wf (c : clone) (v : qversion) : Prop :=
    lookup (refs c) (vmaster v) = lookup (refs c) (match ventries v with [] => vdest v | e :: _ => snd e end) /\
    Below c (vdest v) (vmaster v) /\
    StronglySorted (fun e1 e2 : qentry => fst e2 < fst e1) (ventries v) /\
    (forall e, In e (ventries v) -> Below c (vdest v) (snd e) /\ Below c (snd e) (vmaster v)) /\
    (forall e1 e2, In e1 (ventries v) -> In e2 (ventries v) -> fst e1 <= fst e2 -> Below c (snd e1) (snd e2)).

  Definition QueuesWF (c : clone) (qs : qstate) : Prop :=
    names_wf qs /\ in_order later (map vdest qs) /\
    (forall v, In v qs -> version_wf c v) /\
    (* vertical inclusion: the same pull request on an earlier and on a later version *)
    (forall v1 v2 p a b, In v1 qs -> In v2 qs -> later (vdest v1) (vdest v2) ->
       In (p, a) (ventries v1) -> In (p, b) (ventries v2) -> Below c a b) /\
    (* closure: a pull request queued on a version is queued on every later existing destination *)
    (forall v1 p a d2, In v1 qs -> In (p, a) (ventries v1) -> later (vdest v1) d2 ->
       lookup (refs c) d2 <> None -> exists v2 b, In v2 qs /\ vdest v2 = d2 /\ In (p, b) (ventries v2)).

  Lemma version_wf_new c d q :
    wf_clone c -> lookup (refs c) q = lookup (refs c) d -> lookup (refs c) d <> None -> version_wf c (d, q, []).
  Proof.
    intros W Lq Ld. split; [exact Lq|]. split; [|split; [constructor | split; [intros e [] | intros e1 e2 []]]].
    exact (Below_transport c c d d d q (extends_refl _) eq_refl Lq (Below_refl c d W Ld)).
  Qed.

  (* the queues get_queue_branch(create) builds: every master queue at its destination tip *)
  Theorem queues_wf_empty c dqs :
    wf_clone c -> NoDup (map fst dqs) -> NoDup (map snd dqs) ->
    (forall q, In q (map snd dqs) -> ~ In q (map fst dqs) /\ unrelated q) ->
    in_order later (map fst dqs) ->
    (forall d q, In (d, q) dqs -> lookup (refs c) q = lookup (refs c) d /\ lookup (refs c) d <> None) ->
    QueuesWF c (empty_queues dqs).
  Proof.
    intros W NDd NDq Qn Ord Tip.
    assert (Ed : map vdest (empty_queues dqs) = map fst dqs) by apply map_map.
    assert (Em : map vmaster (empty_queues dqs) = map snd dqs) by apply map_map.
    assert (Ev : forall v, In v (empty_queues dqs) -> exists d q, v = (d, q, []) /\ In (d, q) dqs).
    { intros v ([d q] & <- & Hin)%in_map_iff. exists d, q. split; [reflexivity | exact Hin]. }
    assert (Ee : forall v e, In v (empty_queues dqs) -> ~ In e (ventries v)).
    { intros v e Hv He. destruct (Ev v Hv) as (d & q & -> & _). exact He. }
    split; [|split; [|split; [|split]]].
    - split; [rewrite Ed; exact NDd|]. split; [rewrite Em; exact NDq|]. split.
      + intros n [Hn|(v & e & Hv & He & _)]%queue_names_In; [|destruct (Ee v e Hv He)].
        rewrite Em in Hn. rewrite Ed. exact (Qn n Hn).
      + intros v e Hv He. destruct (Ee v e Hv He).
    - rewrite Ed. exact Ord.
    - intros v Hv. destruct (Ev v Hv) as (d & q & -> & Hin). destruct (Tip d q Hin) as [Lq Ld].
      exact (version_wf_new c d q W Lq Ld).
    - intros v1 v2 p a b Hv1 _ _ He. destruct (Ee v1 _ Hv1 He).
    - intros v1 p a d2 Hv1 He. destruct (Ee v1 _ Hv1 He).
  Qed.

  Definition add_ok (c : clone) (qs : qstate) (p : nat) (adds : list addreq) : Prop :=
    (forall k, In k (all_keys qs) -> k < p) /\
    NoDup (map ad adds) /\ NoDup (map ai adds) /\
    (forall n, In n (map ai adds) -> ~ In n (map vdest qs) /\ ~ In n (queue_names qs) /\ unrelated n) /\
    (forall w, In w (map aw adds) -> ~ In w (map vmaster qs) /\ ~ In w (map ai adds)) /\
    upward_closed later c (map ad adds) /\ in_order later (map ad adds).

  Lemma triples_masters qs adds triples n :
    triples_of qs adds = Some triples -> In n (map tq triples) -> In n (map vmaster qs).
  Proof.
    intros T (t & <- & Ht)%in_map_iff.
    destruct (proj2 (proj2 (proj2 (triples_of_spec _ _ _ T))) t Ht) as (a & v & _ & F & ->).
    cbn [tq fst]. apply in_map. exact (proj1 (find_version_spec _ _ _ F)).
  Qed.

  Lemma triples_tq_NoDup qs : NoDup (map vmaster qs) ->
    forall adds triples, NoDup (map ad adds) -> triples_of qs adds = Some triples -> NoDup (map tq triples).
  Proof.
    intros NDm. induction adds as [|a rest IH]; intros triples NDa T; cbn [triples_of] in T.
    - injection T as <-. constructor.
    - destruct (find_version qs (ad a)) as [v|] eqn:F; [|discriminate T].
      destruct (triples_of qs rest) as [r|] eqn:R; [|discriminate T]. injection T as <-.
      cbn [map] in NDa. apply NoDup_cons_iff in NDa as [Hn NDa'].
      cbn [map tq fst]. constructor; [|exact (IH r NDa' eq_refl)].
      intros (t & Et & Ht)%in_map_iff.
      destruct (proj2 (proj2 (proj2 (triples_of_spec _ _ _ R))) t Ht) as (a' & v' & Ha' & F' & ->).
      cbn [tq fst] in Et.
      destruct (find_version_spec _ _ _ F) as [Hv Dv]. destruct (find_version_spec _ _ _ F') as [Hv' Dv'].
      apply Hn. rewrite <- Dv, <- (NoDup_map_inj vmaster qs v' v NDm Hv' Hv Et), Dv'. apply in_map. exact Ha'.
  Qed.

  Lemma triples_names_ok c qs p adds triples :
    names_wf qs -> add_ok c qs p adds -> triples_of qs adds = Some triples -> aq_names_ok triples.
  Proof.
    intros (NDd & NDm & QN & _) (_ & NDa & NDi & Fresh & Wok & _ & _) T.
    destruct (triples_of_spec _ _ _ T) as (Ei & Ew & _ & _).
    split; [exact (triples_tq_NoDup qs NDm adds triples NDa T)|].
    split; [rewrite Ei; exact NDi|]. split.
    - intros n Hq Hi. rewrite Ei in Hi. destruct (Fresh n Hi) as (_ & Nq & _).
      exact (Nq (queue_names_master _ _ (triples_masters _ _ _ _ T Hq))).
    - intros w Hw. rewrite Ew in Hw. destruct (Wok w Hw) as [A B]. split.
      + intro Hq. apply A. exact (triples_masters _ _ _ _ T Hq).
      + rewrite Ei. exact B.
  Qed.

  Lemma version_wf_stable c c' v :
    extends (st c) (st c') ->
    lookup (refs c') (vdest v) = lookup (refs c) (vdest v) ->
    lookup (refs c') (vmaster v) = lookup (refs c) (vmaster v) ->
    (forall e, In e (ventries v) -> lookup (refs c') (snd e) = lookup (refs c) (snd e)) ->
    version_wf c v -> version_wf c' v.
  Proof.
    intros E Ud Um Ue (Lm & Bd & S & Be & Bm).
    split; [|split; [|split; [|split]]].
    - rewrite Um, Lm. destruct (ventries v) as [|e t] eqn:Ev; symmetry; [exact Ud | apply Ue; left; reflexivity].
    - exact (Below_transport c c' _ _ _ _ E Ud Um Bd).
    - exact S.
    - intros e He. destruct (Be e He) as [B1 B2]. split.
      + exact (Below_transport c c' _ _ _ _ E Ud (Ue e He) B1).
      + exact (Below_transport c c' _ _ _ _ E (Ue e He) Um B2).
    - intros e1 e2 H1 H2 Le. exact (Below_transport c c' _ _ _ _ E (Ue e1 H1) (Ue e2 H2) (Bm e1 e2 H1 H2 Le)).
  Qed.

  Lemma version_wf_enqueue c c' v p qi :
    wf_clone c' -> extends (st c) (st c') -> version_wf c v ->
    (forall e, In e (ventries v) -> fst e < p) ->
    lookup (refs c') (vdest v) = lookup (refs c) (vdest v) ->
    (forall e, In e (ventries v) -> lookup (refs c') (snd e) = lookup (refs c) (snd e)) ->
    lookup (refs c') qi = lookup (refs c') (vmaster v) ->
    (forall a, lookup (refs c') a = lookup (refs c) a -> Below c a (vmaster v) -> Below c' a (vmaster v)) ->
    version_wf c' (vdest v, vmaster v, (p, qi) :: ventries v).
  Proof.
    intros W' E (Lm & Bd & S & Be & Bm) Kp Ud Ue Lqi Gq.
    unfold version_wf. cbn [vdest vmaster ventries fst snd].
    (* what is below the master queue is below qi *)
    assert (Q : forall a b, lookup (refs c') b = lookup (refs c') (vmaster v) -> Below c' a (vmaster v) -> Below c' a b).
    { intros a b Lb. exact (Below_transport c' c' _ _ _ _ (extends_refl _) eq_refl Lb). }
    pose proof (Gq _ Ud Bd) as Bd'.
    pose proof (Below_refl c' _ W' (Below_right_some _ _ _ Bd')) as Bqq.
    split; [symmetry; exact Lqi|]. split; [exact Bd'|]. split; [|split].
    - constructor; [exact S|]. apply Forall_forall. intros e He. exact (Kp e He).
    - intros e [<-|He]; cbn [snd].
      + split; [exact (Q _ _ Lqi Bd')|]. exact (Below_transport c' c' _ _ _ _ (extends_refl _) Lqi eq_refl Bqq).
      + destruct (Be e He) as [B1 B2].
        split; [exact (Below_transport c c' _ _ _ _ E Ud (Ue e He) B1) | exact (Gq _ (Ue e He) B2)].
    - intros e1 e2 [<-|H1] [<-|H2] Le; cbn [fst snd] in *.
      + exact (Below_transport c' c' _ _ _ _ (extends_refl _) Lqi Lqi Bqq).
      + specialize (Kp e2 H2). lia.
      + exact (Q _ _ Lqi (Gq _ (Ue e1 H1) (proj2 (Be e1 H1)))).
      + exact (Below_transport c c' _ _ _ _ E (Ue e1 H1) (Ue e2 H2) (Bm e1 e2 H1 H2 Le)).
  Qed.

  Theorem add_to_queue_preserves_wf sg c qs p adds triples c' :
    wf_clone c -> QueuesWF c qs -> add_ok c qs p adds ->
    triples_of qs adds = Some triples ->            (* every target has its master queue *)
    add_to_queue sg c triples = Some c' ->
    wf_clone c' /\ QueuesWF c' (enqueue p adds qs) /\ extends (st c) (st c') /\
    (forall n, ~ In n (queue_names (enqueue p adds qs)) -> lookup (refs c') n = lookup (refs c) n).
  Proof.
    intros W (NW & Ord & VW & Vert & Clos) OK T H.
    pose proof (triples_names_ok c qs p adds triples NW OK T) as NOK.
    destruct NW as (NDd & NDm & QN & EM).
    destruct OK as (Kp & NDa & NDi & Fresh & Wok & Up & Orda).
    destruct (add_to_queue_spec sg c triples c' W NOK H) as (G & U & Tt & O).
    destruct (triples_of_spec _ _ _ T) as (Ei & _).
    destruct (triples_of_targets _ _ _ NDd NDa T) as (Fa & Ft).
    rewrite Ei in G, U, Tt, O.
    pose proof (proj1 G) as W'. pose proof (proj1 (proj2 G)) as E.
    (* the new names are none of the old ones *)
    assert (Old : forall n, In n (map vdest qs) \/ In n (queue_names qs) -> ~ In n (map ai adds)).
    { intros n Hn Hi. destruct (Fresh n Hi) as (A & B & _). destruct Hn; contradiction. }
    assert (Qm : forall v, In v qs -> In (vmaster v) (queue_names qs)).
    { intros v Hv. exact (queue_names_master _ _ (in_map vmaster _ _ Hv)). }
    (* only master queues and new names moved *)
    assert (Unch : forall n, ~ In n (map vmaster qs) -> ~ In n (map ai adds) -> lookup (refs c') n = lookup (refs c) n).
    { intros n H1 H2. apply U; [|exact H2]. intro Hq. exact (H1 (triples_masters _ _ _ _ T Hq)). }
    assert (Udest : forall v, In v qs -> lookup (refs c') (vdest v) = lookup (refs c) (vdest v)).
    { intros v Hv. pose proof (in_map vdest _ _ Hv) as Hd. apply Unch; [|exact (Old _ (or_introl Hd))].
      intro Hm. exact (proj1 (QN _ (queue_names_master _ _ Hm)) Hd). }
    assert (Uent : forall v e, In v qs -> In e (ventries v) -> lookup (refs c') (snd e) = lookup (refs c) (snd e)).
    { intros v e Hv He. apply Unch; [exact (EM v e Hv He) | exact (Old _ (or_intror (queue_names_entry qs v e Hv He)))]. }
    assert (Keys : forall v e, In v qs -> In e (ventries v) -> fst e < p).
    { intros v e Hv He. apply Kp. apply all_keys_In. exists v, e. auto. }
    split; [exact W'|]. split; [|split; [exact E|]].
    2:{ intros n Hn. apply U.
        - intro Hq. apply Hn, queue_names_master. rewrite enqueue_masters. exact (triples_masters _ _ _ _ T Hq).
        - intros (a & <- & Ha)%in_map_iff. apply Hn. destruct (Fa a Ha) as (v & Hv & F).
          apply queue_names_enqueue. right. exists v, a. auto. }
    split; [|split; [|split; [|split]]].
    - split; [rewrite enqueue_dests; exact NDd|]. split; [rewrite enqueue_masters; exact NDm|]. split.
      + intros n Hn. rewrite enqueue_dests. apply queue_names_enqueue in Hn as [Ho|(v & a & _ & F & ->)]; [exact (QN n Ho)|].
        destruct (find_add_spec _ _ _ F) as [Ha _].
        destruct (Fresh _ (in_map ai _ _ Ha)) as (A & _ & B). split; assumption.
      + intros v' e Hv' He. rewrite enqueue_masters. apply in_map_iff in Hv' as (v & <- & Hv).
        apply enqueue_entries in He as [Hold|(a & F & ->)]; [exact (EM v e Hv Hold)|].
        destruct (find_add_spec _ _ _ F) as [Ha _].
        intro Hm. exact (Old (ai a) (or_intror (queue_names_master _ _ Hm)) (in_map ai _ _ Ha)).
    - rewrite enqueue_dests. exact Ord.
    - intros v' (v & <- & Hv)%in_map_iff. unfold enqueue_version.
      destruct (find_add adds (vdest v)) as [a|] eqn:F.
      + destruct (Tt _ _ _ (proj2 (Ft _) (ex_intro _ v (ex_intro _ a (conj Hv (conj F eq_refl))))))
          as (Lb & _).
        apply (version_wf_enqueue c c' v p (ai a) W' E (VW v Hv) (fun e => Keys v e Hv) (Udest v Hv)
                 (fun e => Uent v e Hv) Lb).
        intros x Ux. exact (Below_grows_except _ c c' x (vmaster v) G (Old _ (or_intror (Qm v Hv))) Ux).
      + apply (version_wf_stable c c' v E (Udest v Hv)); [|exact (fun e => Uent v e Hv) | exact (VW v Hv)].
        (* not a target: its master queue is in no triple *)
        apply U; [|exact (Old _ (or_intror (Qm v Hv)))].
        intros (t & Et & (v0 & a & Hv0 & F0 & ->)%Ft)%in_map_iff. cbn [tq fst] in Et.
        rewrite (NoDup_map_inj vmaster qs v0 v NDm Hv0 Hv Et), F in F0. discriminate F0.
    - intros v1' v2' p0 a0 b0 (v1 & <- & Hv1)%in_map_iff (v2 & <- & Hv2)%in_map_iff L H1 H2.
      rewrite !enqueue_version_dest in L.
      apply enqueue_entries in H1 as [O1|(a1 & F1 & E1)]; apply enqueue_entries in H2 as [O2|(a2 & F2 & E2)].
      + apply (Below_transport c c' a0 b0 _ _ E (Uent v1 _ Hv1 O1) (Uent v2 _ Hv2 O2)).
        exact (Vert v1 v2 p0 a0 b0 Hv1 Hv2 L O1 O2).
      + injection E2 as -> ->. pose proof (Keys v1 _ Hv1 O1) as K. cbn in K. lia.
      + injection E1 as -> ->. pose proof (Keys v2 _ Hv2 O2) as K. cbn in K. lia.
      + (* both new: ordered like the requests *)
        injection E1 as -> ->. injection E2 as ->.
        destruct (find_add_spec _ _ _ F1) as [Ha1 D1]. destruct (find_add_spec _ _ _ F2) as [Ha2 D2].
        destruct (Orda (vdest v1) (vdest v2) L) as (l1 & l2 & l3 & El);
          [rewrite <- D1; apply in_map; exact Ha1 | rewrite <- D2; apply in_map; exact Ha2 |].
        exact (ordpairs_map_pick ad ai (Below c') adds _ _ _ _ _ a1 a2 NDa El Ha1 D1 Ha2 D2 O).
    - intros v1' p0 a0 d2 (v1 & <- & Hv1)%in_map_iff H1 L Ld2. rewrite enqueue_version_dest in L.
      assert (Ld2c : lookup (refs c) d2 <> None).
      { intro N. apply Ld2. destruct G as (_ & _ & _ & Gn). apply Gn; [|exact N].
        intro Hi. destruct (Fresh _ Hi) as (_ & _ & Un). exact (proj2 (Un (vdest v1)) L). }
      apply enqueue_entries in H1 as [O1|(a1 & [Ha1 D1]%find_add_spec & E1)].
      + destruct (Clos v1 p0 a0 d2 Hv1 O1 L Ld2c) as (v2 & b & Hv2 & Dv2 & Hb).
        exists (enqueue_version p adds v2), b. split; [apply in_map; exact Hv2|].
        split; [rewrite enqueue_version_dest; exact Dv2 | apply enqueue_entries; left; exact Hb].
      + injection E1 as -> ->.
        assert (Hd2 : In d2 (map ad adds)).
        { apply (Up (vdest v1) d2); [rewrite <- D1; apply in_map; exact Ha1 | exact L | exact Ld2c]. }
        apply in_map_iff in Hd2 as (a2 & D2 & Ha2). destruct (Fa a2 Ha2) as (v2 & Hv2 & F2).
        exists (enqueue_version p adds v2), (ai a2). split; [apply in_map; exact Hv2|].
        split; [rewrite enqueue_version_dest, <- D2; symmetry; exact (proj2 (find_add_spec _ _ _ F2))|].
        apply enqueue_entries. right. exists a2. auto.
  Qed.
End Queues.

(* get_queue_branch(create=True): a destination that has no queue yet gets its master queue, at its tip *)
Section Create.
  Variable later : name -> name -> Prop.

  Lemma queue_names_insert d q l1 l2 n :
    In n (queue_names (l1 ++ (d, q, []) :: l2)) <-> n = q \/ In n (queue_names (l1 ++ l2)).
  Proof.
    rewrite !queue_names_In, In_map_insert. cbn [vmaster fst snd]. split.
    - intros [[->|H]|(v & e & [->|Hv]%In_insert & He & ->)]; [left; reflexivity | right; left; exact H | destruct He |].
      right. right. exists v, e. auto.
    - intros [->|[H|(v & e & Hv & He & ->)]]; [left; left; reflexivity | left; right; exact H|].
      right. exists v, e. split; [apply In_insert; right; exact Hv | auto].
  Qed.

  (* the new queue: a destination without queue, a new unrelated name, inserted where compare_queues sorts it *)
  Definition create_ok (qs l1 l2 : qstate) (d q : name) : Prop :=
    qs = l1 ++ l2 /\ ~ In d (map vdest qs) /\ ~ In d (queue_names qs) /\
    q <> d /\ ~ In q (map vdest qs) /\ ~ In q (queue_names qs) /\ unrelated later q /\
    in_order later (map vdest (l1 ++ (d, q, []) :: l2)).

  Theorem create_queue_preserves_wf c qs l1 l2 d q c' :
    wf_clone c -> QueuesWF later c qs -> create_ok qs l1 l2 d q -> create_queue c d q = Some c' ->
    wf_clone c' /\ QueuesWF later c' (l1 ++ (d, q, []) :: l2) /\ st c' = st c /\
    (forall n, n <> q -> lookup (refs c') n = lookup (refs c) n).
  Proof.
    intros W ((NDd & NDm & QN & EM) & Ord & VW & Vert & Clos) (Eqs & Nd1 & Nd2 & Nqd & Nq1 & Nq2 & Uq & Ord') H.
    unfold create_queue in H. destruct (copy_ref_spec _ _ _ _ W H) as (W' & S & Lq & Ld & U).
    subst qs. set (qs := l1 ++ l2) in *.
    assert (E : extends (st c) (st c')) by (rewrite S; apply extends_refl).
    (* q is none of the old names *)
    assert (Nmq : ~ In q (map vmaster qs)) by (intro Hm; exact (Nq2 (queue_names_master _ _ Hm))).
    assert (Ndest : forall v, In v qs -> vdest v <> q) by (intros v Hv <-; exact (Nq1 (in_map vdest _ _ Hv))).
    assert (Nmast : forall v, In v qs -> vmaster v <> q) by (intros v Hv <-; exact (Nmq (in_map vmaster _ _ Hv))).
    assert (Nent : forall v e, In v qs -> In e (ventries v) -> snd e <> q).
    { intros v e Hv He <-. exact (Nq2 (queue_names_entry _ v e Hv He)). }
    split; [exact W'|]. split; [|split; [exact S | exact U]].
    split; [|split; [exact Ord'|split; [|split]]].
    - split; [apply NoDup_map_insert; [exact NDd | exact Nd1]|].
      split; [apply NoDup_map_insert; [exact NDm | exact Nmq]|]. split.
      + intros n [->|Hn]%queue_names_insert.
        * split; [|exact Uq]. intros [Hd|Hd]%In_map_insert; [exact (Nqd Hd) | exact (Nq1 Hd)].
        * destruct (QN n Hn) as [A B]. split; [|exact B]. intros [->|Hd]%In_map_insert; [exact (Nd2 Hn) | exact (A Hd)].
      + intros v e [->|Hv]%In_insert He; [destruct He|].
        intros [Hm|Hm]%In_map_insert; [exact (Nent v e Hv He Hm) | exact (EM v e Hv He Hm)].
    - intros v [->|Hv]%In_insert.
      + apply (version_wf_new c' d q W'); rewrite (U d (not_eq_sym Nqd)); [exact Lq | exact Ld].
      + apply (version_wf_stable c c' v E); [apply U; exact (Ndest v Hv) | apply U; exact (Nmast v Hv) | | exact (VW v Hv)].
        intros e He. apply U. exact (Nent v e Hv He).
    - intros v1 v2 p a b [->|Hv1]%In_insert [->|Hv2]%In_insert L H1 H2; try contradiction.
      apply (Below_transport c c' a b a b E); [apply U; exact (Nent v1 _ Hv1 H1) | apply U; exact (Nent v2 _ Hv2 H2)|].
      exact (Vert v1 v2 p a b Hv1 Hv2 L H1 H2).
    - intros v1 p a d2 [->|Hv1]%In_insert H1 L Ld2; [destruct H1|].
      assert (Nd2q : d2 <> q) by (intros ->; exact (proj2 (Uq (vdest v1)) L)).
      rewrite (U d2 Nd2q) in Ld2.
      destruct (Clos v1 p a d2 Hv1 H1 L Ld2) as (v2 & b & Hv2 & Dv2 & Hb).
      exists v2, b. split; [apply In_insert; right; exact Hv2|]. split; assumption.
  Qed.
End Create.

Section Cycle.
  Variable later : name -> name -> Prop.

  Lemma in_order_map_filter {A} (f : A -> name) p l :
    NoDup (map f l) -> in_order later (map f l) -> in_order later (map f (filter p l)).
  Proof.
    intros ND Ord a b L (va & <- & [Hva Pa]%filter_In)%in_map_iff (vb & <- & [Hvb Pb]%filter_In)%in_map_iff.
    destruct (Ord _ _ L (in_map f _ _ Hva) (in_map f _ _ Hvb)) as (l1 & l2 & l3 & El).
    destruct (map_split2 f l va vb _ _ _ ND Hva Hvb El) as (L1 & L2 & L3 & ->).
    exists (map f (filter p L1)), (map f (filter p L2)), (map f (filter p L3)).
    rewrite filter_app. cbn [filter]. rewrite Pa, filter_app. cbn [filter]. rewrite Pb, map_app. cbn [map].
    rewrite map_app. reflexivity.
  Qed.

  Theorem wf_selection_hyps c qs k :
    QueuesWF later c qs ->
    NoDup (map fst (sel_of k qs)) /\
    (forall q, In q (map snd (sel_of k qs)) -> ~ In q (map fst (sel_of k qs))) /\
    upward_closed later c (map fst (sel_of k qs)) /\ in_order later (map fst (sel_of k qs)) /\
    (forall d q, In (d, q) (sel_of k qs) -> Below c d q) /\
    (forall d1 q1 d2 q2, In (d1, q1) (sel_of k qs) -> In (d2, q2) (sel_of k qs) -> later d1 d2 -> Below c q1 q2).
  Proof.
    intros ((NDd & NDm & QN & EM) & Ord & VW & Vert & Clos).
    assert (Dests : forall d, In d (map fst (sel_of k qs)) -> In d (map vdest qs)).
    { intro d. rewrite sel_of_dests. intros (v & <- & [Hv _]%filter_In)%in_map_iff. apply in_map. exact Hv. }
    split; [rewrite sel_of_dests; apply NoDup_map_filter; exact NDd|]. split; [|split; [|split; [|split]]].
    - intros q Hq Hd. apply in_map_iff in Hq as ([d' q'] & <- & Hin).
      destruct (sel_of_entry _ _ _ _ Hin) as (v & e & Hv & _ & He & <- & _).
      exact (proj1 (QN _ (queue_names_entry qs v e Hv He)) (Dests _ Hd)).
    - intros a b Ha L Lb. apply in_map_iff in Ha as ([d' q'] & <- & Hin).
      destruct (sel_of_entry _ _ _ _ Hin) as (v1 & [p1 x1] & Hv1 & <- & He1 & _ & Le1).
      destruct (Clos v1 p1 x1 b Hv1 He1 L Lb) as (v2 & y & Hv2 & <- & Hy).
      destruct (newest_upto k (ventries v2)) as [e2|] eqn:F2.
      + apply in_map_iff. exists (vdest v2, snd e2). split; [reflexivity|]. apply sel_of_In. exists v2, e2. auto.
      + pose proof (find_none _ _ F2 (p1, y) Hy) as N. cbn [fst] in N, Le1. apply Nat.leb_gt in N. lia.
    - rewrite sel_of_dests. apply in_order_map_filter; assumption.
    - intros d q Hin. destruct (sel_of_entry _ _ _ _ Hin) as (v & e & Hv & <- & He & <- & _).
      destruct (VW v Hv) as (_ & _ & _ & Be & _). exact (proj1 (Be e He)).
    - (* the pull request selected on the earlier version is queued on the later one (closure), below its own
         entry there (vertical), which is at most the one selected there (ranks) *)
      intros d1 q1 d2 q2 H1 H2 L.
      destruct (sel_of_entry _ _ _ _ H1) as (v1 & [p1 a] & Hv1 & <- & He1 & <- & Le1).
      apply sel_of_In in H2 as (v2 & e2 & Hv2 & F2 & -> & ->). cbn [fst snd] in *.
      destruct (newest_upto_spec _ _ _ F2) as [He2 _].
      destruct (VW v2 Hv2) as (_ & Bd2 & S2 & _ & Bm2).
      destruct (Clos v1 p1 a (vdest v2) Hv1 He1 L (Below_left_some _ _ _ Bd2)) as (v2' & b1 & Hv2' & Dv2' & Hb1).
      rewrite (NoDup_map_inj vdest qs v2' v2 NDd Hv2' Hv2 Dv2') in Hb1.
      pose proof (newest_upto_max _ _ _ S2 F2 (p1, b1) Hb1 Le1) as Le.
      exact (Below_trans _ _ _ _ (Vert v1 v2 p1 a b1 Hv1 Hv2 L He1 Hb1) (Bm2 (p1, b1) e2 Hb1 He2 Le)).
  Qed.

  (* any number of queueing steps: get_queue_branch(create) on a destination without queue, or add_to_queue
     of a pull request newer than everything queued *)
  Inductive queue_adds : clone -> qstate -> clone -> qstate -> Prop :=
  | qa_done c qs : queue_adds c qs c qs
  | qa_create c qs l1 l2 d q c1 c' qs' :
      create_ok later qs l1 l2 d q -> create_queue c d q = Some c1 ->
      queue_adds c1 (l1 ++ (d, q, []) :: l2) c' qs' -> queue_adds c qs c' qs'
  | qa_add sg c qs p adds triples c1 c' qs' :
      add_ok later c qs p adds -> triples_of qs adds = Some triples -> add_to_queue sg c triples = Some c1 ->
      queue_adds c1 (enqueue p adds qs) c' qs' -> queue_adds c qs c' qs'.

  Lemma queue_adds_names c qs c' qs' : queue_adds c qs c' qs' ->
    forall n, In n (queue_names qs) -> In n (queue_names qs').
  Proof.
    intro H. induction H as [c qs | c qs l1 l2 d q c1 c' qs' OK C _ IH | sg c qs p adds triples c1 c' qs' OK T A _ IH];
      intros n Hn; [exact Hn | |].
    - apply IH. apply queue_names_insert. right. destruct OK as (Eqs & _). subst qs. exact Hn.
    - apply IH. apply queue_names_enqueue. left. exact Hn.
  Qed.

  Theorem queue_adds_invariant c qs c' qs' :
    wf_clone c -> Incl later c -> QueuesWF later c qs -> queue_adds c qs c' qs' ->
    wf_clone c' /\ Incl later c' /\ QueuesWF later c' qs' /\ extends (st c) (st c') /\
    (forall n, ~ In n (queue_names qs') -> lookup (refs c') n = lookup (refs c) n).
  Proof.
    intros W I WF H.
    induction H as [c qs | c qs l1 l2 d q c1 c' qs' OK C Rest IH | sg c qs p adds triples c1 c' qs' OK T A Rest IH].
    - split; [exact W|]. split; [exact I|]. split; [exact WF|]. split; [apply extends_refl | reflexivity].
    - destruct (create_queue_preserves_wf later c qs l1 l2 d q c1 W WF OK C) as (W1 & WF1 & S1 & U1).
      assert (I1 : Incl later c1).
      { apply (Incl_stable later c c1 I); [rewrite S1; apply extends_refl|].
        intros n m L. apply U1. intros ->. destruct OK as (_ & _ & _ & _ & _ & _ & Uq & _).
        destruct (Uq m) as [A B]. destruct L; contradiction. }
      destruct (IH W1 I1 WF1) as (W' & I' & WF' & E' & U').
      split; [exact W'|]. split; [exact I'|]. split; [exact WF'|].
      split; [rewrite <- S1; exact E'|].
      intros n Hn. rewrite (U' n Hn). apply U1. intros ->. apply Hn.
      apply (queue_adds_names _ _ _ _ Rest). apply queue_names_insert. left; reflexivity.
    - destruct (add_to_queue_preserves_wf later sg c qs p adds triples c1 W WF OK T A) as (W1 & WF1 & E1 & U1).
      assert (I1 : Incl later c1).
      { apply (Incl_stable later c c1 I E1). intros n m L. apply U1. intro Hn.
        destruct WF1 as ((_ & _ & QN1 & _) & _). destruct (proj2 (QN1 n Hn) m) as [A' B]. destruct L; contradiction. }
      destruct (IH W1 I1 WF1) as (W' & I' & WF' & E' & U').
      split; [exact W'|]. split; [exact I'|]. split; [exact WF'|]. split; [exact (extends_trans _ _ _ E1 E')|].
      intros n Hn. rewrite (U' n Hn). apply U1. intro Hq. apply Hn. exact (queue_adds_names _ _ _ _ Rest n Hq).
  Qed.

  Theorem queue_cycle_incl c qs c1 qs1 k :
    wf_clone c -> Incl later c -> QueuesWF later c qs -> queue_adds c qs c1 qs1 ->
    exists c2, merge_queues c1 (sel_of k qs1) = Some c2 /\
    Incl later c2 /\
    (forall d q, In (d, q) (sel_of k qs1) ->
       lookup (refs c2) d = lookup (refs c1) q /\
       exists v e, In v qs1 /\ vdest v = d /\ In e (ventries v) /\ snd e = q /\ fst e <= k) /\
    (forall n, ~ In n (map fst (sel_of k qs1)) -> lookup (refs c2) n = lookup (refs c1) n) /\
    st c2 = st c1 /\
    (forall n, ~ In n (queue_names qs1) -> lookup (refs c1) n = lookup (refs c) n).
  Proof.
    intros W I WF Adds.
    destruct (queue_adds_invariant c qs c1 qs1 W I WF Adds) as (W1 & I1 & WF1 & _ & U1).
    destruct (wf_selection_hyps c1 qs1 k WF1) as (ND & Dis & Up & Ord & Ff & Qq).
    destruct (merge_queues_ff (sel_of k qs1) c1 W1 ND Dis Ff) as (c2 & M & _).
    exists c2. split; [exact M|].
    destruct (merge_queues_incl later c1 (sel_of k qs1) c2 W1 I1 ND Dis Up Ord Ff Qq M) as (I2 & Eq & U2 & S2).
    split; [exact I2|]. split; [|split; [exact U2 | split; [exact S2 | exact U1]]].
    intros d q Hin. split; [exact (Eq d q Hin) | exact (sel_of_entry k qs1 d q Hin)].
  Qed.

  Section Green.
    Variable green : cid -> Prop.

    Theorem queue_cycle_green c qs c1 qs1 k :
      wf_clone c -> Incl later c -> QueuesWF later c qs -> queue_adds c qs c1 qs1 ->
      (forall d q, In (d, q) (sel_of k qs1) -> tip_green green c1 q) ->
      exists c2, merge_queues c1 (sel_of k qs1) = Some c2 /\
      (forall d q, In (d, q) (sel_of k qs1) -> tip_green green c2 d) /\
      (forall n, ~ In n (map fst (sel_of k qs1)) -> lookup (refs c2) n = lookup (refs c1) n).
    Proof.
      intros W I WF Adds Gr.
      destruct (queue_cycle_incl c qs c1 qs1 k W I WF Adds) as (c2 & M & _ & Eq & U2 & _).
      exists c2. split; [exact M|]. split; [|exact U2].
      intros d q Hin. destruct (Gr d q Hin) as (x & Lx & Gx). exists x. rewrite (proj1 (Eq d q Hin)). auto.
    Qed.
  End Green.
End Cycle.

(* Non-vacuity: two pull requests queued on a three-version cascade.
   destinations 1 < 2 < 3 (tips 1, 2, 3), master queues 11 12 13 created at the destination tips;
   pull request A (rank 1): source 20 -> targets 1 2 3 with integration branches 20, 21, 22;
   pull request B (rank 2): source 40 -> targets 2 3 with integration branches 40, 41. *)
Definition ex_later (a b : name) : Prop := a < b /\ b <= 3.
Definition ex_store : store :=
  [mkCommit [] false; mkCommit [0] false; mkCommit [1] false; mkCommit [2] false;    (* root, dev tips *)
   mkCommit [1] false; mkCommit [2; 4] true; mkCommit [3; 5] true;                   (* A, w/2 of A, w/3 of A *)
   mkCommit [2] false; mkCommit [3; 7] true].                                        (* B, w/3 of B *)
Definition ex_refs_pre : refmap := [(1, 1); (2, 2); (3, 3); (20, 4); (21, 5); (22, 6); (40, 7); (41, 8)].
Definition ex_cpre : clone := mkClone ex_store ex_refs_pre.                           (* no queue yet *)
Definition ex_c0 : clone := mkClone ex_store (ex_refs_pre ++ [(11, 1); (12, 2); (13, 3)]).
Definition ex_dqs : list (name * name) := [(1, 11); (2, 12); (3, 13)].
Definition ex_addsA : list addreq := [(1, 20, 31); (2, 21, 32); (3, 22, 33)].
Definition ex_addsB : list addreq := [(2, 40, 52); (3, 41, 53)].
Definition ex_qsA : qstate := enqueue 1 ex_addsA (empty_queues ex_dqs).
Definition ex_qsB : qstate := enqueue 2 ex_addsB ex_qsA.
Definition ex_pairs : list (name * name) := [(1, 2); (1, 3); (2, 3)].

Definition ex_cA : clone :=
  match queue_add [Octopus; Octopus] 1 ex_addsA (ex_c0, empty_queues ex_dqs) with Some s => fst s | None => ex_c0 end.
Definition ex_cB : clone :=
  match queue_add [Octopus] 2 ex_addsB (ex_cA, ex_qsA) with Some s => fst s | None => ex_c0 end.

Lemma nodup_NoDup (l : list nat) : nodup Nat.eq_dec l = l -> NoDup l.
Proof. intros <-. apply NoDup_nodup. Qed.

Lemma disjoint_b (l1 l2 : list nat) :
  forallb (fun n => negb (existsb (Nat.eqb n) l2)) l1 = true -> forall n, In n l1 -> ~ In n l2.
Proof.
  intros H n Hn Hi. apply (proj1 (forallb_forall _ _) H) in Hn. apply negb_true_iff in Hn.
  pose proof (proj1 (existsb_false_iff _ _) Hn n Hi) as E. rewrite Nat.eqb_refl in E. discriminate E.
Qed.

Lemma ex_cpre_wf : wf_clone ex_cpre.
Proof. apply wf_clone_b_spec. reflexivity. Qed.

Lemma ex_c0_wf : wf_clone ex_c0.
Proof. apply wf_clone_b_spec. reflexivity. Qed.

Lemma ex_incl_pre : Incl ex_later ex_cpre.
Proof.
  intros a b x y [L1 L2] La Lb. apply anc_spec; [exact (proj1 ex_cpre_wf)|].
  assert (Hb : b = 1 \/ b = 2 \/ b = 3) by lia.
  assert (Ha : a = 0 \/ a = 1 \/ a = 2) by lia.
  destruct Hb as [-> | [-> | ->]]; destruct Ha as [-> | [-> | ->]]; try lia; cbn in La, Lb; try discriminate La;
    injection La as <-; injection Lb as <-; reflexivity.
Qed.

Lemma ex_unrelated n : 4 <= n -> unrelated ex_later n.
Proof. intros H m. unfold ex_later. lia. Qed.

Lemma ex_in_order123 : in_order ex_later [1; 2; 3].
Proof.
  intros a b [L1 L2] Ha Hb. cbn in Ha, Hb.
  destruct Ha as [<-|[<-|[<-|[]]]]; destruct Hb as [<-|[<-|[<-|[]]]]; try lia.
  - exists [], [], [3]. reflexivity.
  - exists [], [2], []. reflexivity.
  - exists [1], [], []. reflexivity.
Qed.

Lemma ex_in_order p : in_order ex_later (map (fun d => d) (filter p [1; 2; 3])).
Proof. apply in_order_map_filter; [apply nodup_NoDup; reflexivity | exact ex_in_order123]. Qed.

Lemma ex_wf_pre : QueuesWF ex_later ex_cpre [].
Proof.
  apply (queues_wf_empty ex_later ex_cpre []); [exact ex_cpre_wf | constructor | constructor | intros q [] | | intros d q []].
  intros a b _ [].
Qed.

Lemma ex_wf0 : QueuesWF ex_later ex_c0 (empty_queues ex_dqs).
Proof.
  apply queues_wf_empty.
  - exact ex_c0_wf.
  - apply nodup_NoDup. reflexivity.
  - apply nodup_NoDup. reflexivity.
  - intros q Hq. split; [refine (disjoint_b _ _ _ q Hq); reflexivity | apply ex_unrelated; cbn in Hq; lia].
  - exact ex_in_order123.
  - intros d q [E|[E|[E|[]]]]; injection E as <- <-; cbn; (split; [reflexivity | discriminate]).
Qed.

Lemma ex_create_ok (l1 : qstate) d q :
  4 <= q -> d <= 3 -> ~ In d (map vdest l1) -> ~ In d (queue_names l1) -> ~ In q (map vdest l1) -> ~ In q (queue_names l1) ->
  in_order ex_later (map vdest (l1 ++ [(d, q, [])])) -> create_ok ex_later l1 l1 [] d q.
Proof.
  intros Hq Hd A B C D O. split; [symmetry; apply app_nil_r|]. split; [exact A|]. split; [exact B|].
  split; [lia|]. split; [exact C|]. split; [exact D|]. split; [apply ex_unrelated; exact Hq | exact O].
Qed.

Lemma ex_add_okA : add_ok ex_later ex_c0 (empty_queues ex_dqs) 1 ex_addsA.
Proof.
  split; [intros k []|].
  split; [apply nodup_NoDup; reflexivity|]. split; [apply nodup_NoDup; reflexivity|].
  split; [intros n Hn; split; [|split]; [refine (disjoint_b _ _ _ n Hn); reflexivity ..
                                        | apply ex_unrelated; cbn in Hn; lia]|].
  split; [intros w Hw; split; refine (disjoint_b _ _ _ w Hw); reflexivity|].
  split; [|exact ex_in_order123].
  intros a b Ha [L1 L2] _. cbn in Ha |- *. lia.
Qed.

Lemma ex_add_okB cA : add_ok ex_later cA ex_qsA 2 ex_addsB.
Proof.
  split; [intros k Hk; cbv in Hk; lia|].
  split; [apply nodup_NoDup; reflexivity|]. split; [apply nodup_NoDup; reflexivity|].
  split; [intros n Hn; split; [|split]; [refine (disjoint_b _ _ _ n Hn); reflexivity ..
                                        | apply ex_unrelated; cbn in Hn; lia]|].
  split; [intros w Hw; split; refine (disjoint_b _ _ _ w Hw); reflexivity|].
  split; [|exact (ex_in_order (fun d => 2 <=? d))].
  intros a b Ha [L1 L2] _. cbn in Ha |- *. lia.
Qed.

(* both pull requests queued: the invariant holds (by the theorems above), the prefix selections are the
   expected ones, and merging either prefix keeps the forward-port inclusion and lands each destination on
   the queue commit of the newest selected pull request (B's queue commits 9 and 10 are true merges) *)
Example queue_cycle_example :
  exists cA cB,
    queue_add [Octopus; Octopus] 1 ex_addsA (ex_c0, empty_queues ex_dqs) = Some (cA, ex_qsA) /\
    queue_add [Octopus] 2 ex_addsB (cA, ex_qsA) = Some (cB, ex_qsB) /\
    QueuesWF ex_later cB ex_qsB /\ length (st cB) = 11 /\
    sel_of 1 ex_qsB = [(1, 31); (2, 32); (3, 33)] /\ sel_of 2 ex_qsB = [(1, 31); (2, 52); (3, 53)] /\
    sel_of 0 ex_qsB = [] /\
    incl_b cB ex_pairs = true /\
    match merge_queues cB (sel_of 1 ex_qsB) with
    | Some c2 => incl_b c2 ex_pairs = true /\ lookups (refs c2) [1; 2; 3] = Some [4; 5; 6] /\ st c2 = st cB
    | None => False
    end /\
    match merge_queues cB (sel_of 2 ex_qsB) with
    | Some c2 => incl_b c2 ex_pairs = true /\ lookups (refs c2) [1; 2; 3] = Some [4; 9; 10] /\ st c2 = st cB
    | None => False
    end.
Proof.
  exists ex_cA, ex_cB.
  split; [vm_compute; reflexivity|]. split; [vm_compute; reflexivity|].
  split; [|vm_compute; repeat split; reflexivity].
  destruct (add_to_queue_preserves_wf ex_later [Octopus; Octopus] ex_c0 _ 1 ex_addsA
              [(11, 20, 31); (12, 21, 32); (13, 22, 33)] ex_cA ex_c0_wf ex_wf0 ex_add_okA eq_refl)
    as (WA & WFA & _); [vm_compute; reflexivity|].
  refine (proj1 (proj2 (add_to_queue_preserves_wf ex_later [Octopus] ex_cA _ 2 ex_addsB [(12, 40, 52); (13, 41, 53)]
                          ex_cB WA WFA (ex_add_okB ex_cA) eq_refl _))).
  vm_compute. reflexivity.
Qed.

(* the hypotheses of the cycle theorems are satisfiable: the same history as a [queue_adds] run that starts
   without any queue (three get_queue_branch(create) steps, then the two pull requests) *)
Example queue_cycle_example_adds :
  exists cB, queue_adds ex_later ex_cpre [] cB ex_qsB /\
             wf_clone ex_cpre /\ Incl ex_later ex_cpre /\ QueuesWF ex_later ex_cpre [] /\
             sel_of 1 ex_qsB <> [].
Proof.
  exists ex_cB. split.
  - apply (qa_create ex_later ex_cpre [] [] [] 1 11 (mkClone ex_store (ex_refs_pre ++ [(11, 1)]))).
    { apply ex_create_ok; try lia; try (cbn; tauto). exact (ex_in_order (fun d => d <=? 1)). }
    { reflexivity. }
    apply (qa_create ex_later _ [(1, 11, [])] [(1, 11, [])] [] 2 12 (mkClone ex_store (ex_refs_pre ++ [(11, 1); (12, 2)]))).
    { apply ex_create_ok; try lia; try (cbn; intuition discriminate). exact (ex_in_order (fun d => d <=? 2)). }
    { reflexivity. }
    apply (qa_create ex_later _ [(1, 11, []); (2, 12, [])] [(1, 11, []); (2, 12, [])] [] 3 13 ex_c0).
    { apply ex_create_ok; try lia; try (cbn; intuition discriminate). exact ex_in_order123. }
    { reflexivity. }
    apply (qa_add ex_later [Octopus; Octopus] ex_c0 (empty_queues ex_dqs) 1 ex_addsA
             [(11, 20, 31); (12, 21, 32); (13, 22, 33)] ex_cA);
      [exact ex_add_okA | reflexivity | vm_compute; reflexivity|].
    apply (qa_add ex_later [Octopus] ex_cA ex_qsA 2 ex_addsB [(12, 40, 52); (13, 41, 53)] ex_cB);
      [apply ex_add_okB | reflexivity | vm_compute; reflexivity|].
    apply qa_done.
  - split; [exact ex_cpre_wf|]. split; [exact ex_incl_pre|]. split; [exact ex_wf_pre|]. discriminate.
Qed.
