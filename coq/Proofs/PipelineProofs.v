(* Theorems about the handler skeletons of Model/Pipeline.v, for EVERY oracle (every combination of answers the
   stages may give, position by position).  Properties/Pipeline.v states the property theorems, each by [exact] of
   or in a few lines from what is here; Proofs/EndToEndProofs.v uses inner_gates_are_last and
   exec_answers_from_oracle.

   1. Where a step sits in an evaluation is read off one kind of statement, [reaching f p Q]: "every trace of the
      program p that contains a stage of the class f satisfies Q".  Its rules (reaching_call, reaching_callb, ...)
      follow the combinators of Model/Pipeline.v, so a proof walks down the handler once, along the only path on
      which an f-stage is still ahead, and Q collects what the walk has passed; the walks of the model's
      definitions are the lemmas *_reaching; reaching_first serves hypotheses about the FIRST f-stage of a trace.
      From these: inner_landing_shape and what is read off it (the gates before landing, C06_gate_is_last),
      C11_untouched, conflict_handler, the two shapes of the queue evaluation (C02, C03).
   2. [strict], a structural predicate on programs, and strict_stops: no handler swallows an exception
      (the *_refusal_is_final theorems).
   3. The short handlers and the early refusals of C12 are read off exec directly (exec_ask_inv, exec_call_inv). *)
From Coq Require Import List String Bool Arith.
Require Import BertE.Model.Pipeline.
Import ListNotations.
Open Scope string_scope.
Open Scope list_scope.

Definition stages (tr : list (stage * ans)) : list stage := map fst tr.
Definition reaches (f : stage -> bool) (tr : list (stage * ans)) : bool := existsb f (stages tr).
Definition is_stage (x s : stage) : bool := stage_eqb s x.

Lemma reaches_app f a b : reaches f (a ++ b) = reaches f a || reaches f b.
Proof. unfold reaches, stages. rewrite map_app. apply existsb_app. Qed.

Lemma reaches_cons f s a t : reaches f ((s, a) :: t) = f s || reaches f t.
Proof. reflexivity. Qed.

Lemma reaches_hit f pre s a post : f s = true -> reaches f (pre ++ (s, a) :: post) = true.
Proof. intros F. rewrite reaches_app, reaches_cons, F. apply orb_true_r. Qed.

(* a trace has one first f-stage: two splits at an f-stage with no f-stage before it are the same split *)
Lemma first_split_unique (f : stage -> bool) : forall (l1 : list (stage * ans)) x l2 m1 y m2,
  l1 ++ x :: l2 = m1 ++ y :: m2 -> reaches f l1 = false -> reaches f m1 = false ->
  f (fst x) = true -> f (fst y) = true -> l1 = m1 /\ x = y /\ l2 = m2.
Proof.
  induction l1 as [|[s a] l1 IH]; intros x l2 [|[s' a'] m1] y m2 E R1 R2 Fx Fy.
  - injection E as -> ->. auto.
  - injection E as -> _. cbn [fst] in Fx. rewrite reaches_cons, Fx in R2. discriminate.
  - injection E as <- _. cbn [fst] in Fy. rewrite reaches_cons, Fy in R1. discriminate.
  - injection E as -> -> E. rewrite reaches_cons in R1, R2.
    apply orb_false_iff in R1 as (_ & R1), R2 as (_ & R2).
    destruct (IH _ _ _ _ _ E R1 R2 Fx Fy) as (-> & -> & ->). auto.
Qed.

Lemma exec_ask_inv o pos s k tr r :
  exec o pos (Ask s k) = (tr, r) -> exists t, tr = (s, o pos s) :: t /\ exec o (S pos) (k (o pos s)) = (t, r).
Proof.
  cbn [exec]. destruct (exec o (S pos) (k (o pos s))) as [t r']. intros [= <- <-]. exists t. auto.
Qed.

(* every element of a trace is an answer of the oracle at some position *)
Lemma exec_answers_from_oracle : forall p o pos tr r s a,
  exec o pos p = (tr, r) -> In (s, a) tr -> exists q, o q s = a.
Proof.
  induction p as [r0 | s0 k IH]; intros o pos tr r s a E I.
  - injection E as <- _. contradiction.
  - apply exec_ask_inv in E as (t & -> & E). destruct I as [[= <- <-] | I]; eauto.
Qed.

(* a call the handler does not guard either returned, and the handler goes on, or ends the trace *)
Lemma exec_call_inv o pos s k tr r :
  exec o pos (call s k) = (tr, r) ->
  (exists t, o pos s = AOk /\ tr = (s, AOk) :: t /\ exec o (S pos) k = (t, r)) \/
  (o pos s <> AOk /\ tr = [(s, o pos s)]).
Proof.
  intros H. apply exec_ask_inv in H as (t & -> & H).
  destruct (o pos s); try (right; injection H as <- _; split; [discriminate | reflexivity]).
  left. eauto.
Qed.

(* a call that raised or answered something unexpected ends the trace *)
Lemma exec_call_stop o pos s k tr r :
  exec o pos (call s k) = (tr, r) -> o pos s <> AOk -> tr = [(s, o pos s)].
Proof. intros H N. apply exec_call_inv in H as [(t & E & _) | (_ & ->)]; [contradiction | reflexivity]. Qed.

Lemma exec_call_raise o pos s k tr r kd n :
  exec o pos (call s k) = (tr, r) -> o pos s = ARaise kd n -> tr = [(s, ARaise kd n)] /\ r = ORaise n.
Proof. intros H E. apply exec_ask_inv in H as (t & -> & H). rewrite E in *. injection H as <- <-. auto. Qed.

Implicit Types Q : list (stage * ans) -> outcome -> Prop.

Definition reaching (f : stage -> bool) (p : prog) Q : Prop :=
  forall o pos tr r, exec o pos p = (tr, r) -> reaches f tr = true -> Q tr r.

Lemma reaching_mono f p Q Q' :
  reaching f p Q -> (forall tr r, Q tr r -> Q' tr r) -> reaching f p Q'.
Proof. intros H I o pos tr r E R. exact (I _ _ (H _ _ _ _ E R)). Qed.

Lemma reaching_done f x Q : reaching f (Done x) Q.
Proof. intros o pos tr r [= <- _] R. discriminate R. Qed.

(* a stage outside f is passed, whatever it answers *)
Lemma reaching_ask f s k Q :
  f s = false -> (forall a, reaching f (k a) (fun tr => Q ((s, a) :: tr))) -> reaching f (Ask s k) Q.
Proof.
  intros F K o pos tr r E R. apply exec_ask_inv in E as (t & -> & E).
  rewrite reaches_cons, F in R. exact (K _ _ _ _ _ E R).
Qed.

(* the walk may end at any stage (at an f-stage, in the uses below), with what the rest of the handler does *)
Lemma reaching_here f s k Q :
  (forall a o pos t r, exec o pos (k a) = (t, r) -> Q ((s, a) :: t) r) -> reaching f (Ask s k) Q.
Proof. intros K o pos tr r E _. apply exec_ask_inv in E as (t & -> & E). exact (K _ _ _ _ _ E). Qed.

(* past an unguarded call the trace only goes on when the call returned *)
Lemma reaching_call f s k Q :
  f s = false -> reaching f k (fun tr => Q ((s, AOk) :: tr)) -> reaching f (call s k) Q.
Proof. intros F K. apply reaching_ask; [exact F|]. intros []; try apply reaching_done. exact K. Qed.

Lemma reaching_callb f s k Q :
  f s = false -> (forall b, reaching f (k b) (fun tr => Q ((s, AB b) :: tr))) -> reaching f (callb s k) Q.
Proof. intros F K. apply reaching_ask; [exact F|]. intros []; try apply reaching_done. apply K. Qed.

Lemma reaching_when_call f (b : bool) s k Q :
  f s = false -> reaching f k (fun tr => Q ((if b then [(s, AOk)] else []) ++ tr)) ->
  reaching f (when b (call s) k) Q.
Proof. intros F K. destruct b; [apply reaching_call; [exact F|] |]; exact K. Qed.

(* a loop whose body passes [pre] *)
Lemma reaching_times f body pre k :
  (forall k' Q',
     reaching f k' (fun tr => Q' (pre ++ tr)) -> reaching f (body k') Q') ->
  forall n Q,
  reaching f k (fun tr => Q (List.concat (repeat pre n) ++ tr)) -> reaching f (times n body k) Q.
Proof.
  intros B. induction n as [|n IH]; intros Q K; [exact K|].
  apply B, IH. apply (reaching_mono _ _ _ _ K). intros tr r. cbn [repeat List.concat]. rewrite app_assoc. trivial.
Qed.

(* How a walk serves a hypothesis of the form "tr = pre ++ x :: post, and x is the first f-stage of tr": walk p;
   where the walk stops, give the split pre' ++ x' :: post' of the trace it has found, at an f-stage with none
   before it.  The two splits are the same (first_split_unique), so the goal G is left to be proved with pre', x',
   post', r' for pre, x, post, r. *)
Lemma reaching_first f p {o pos tr r pre x post} (G : Prop) :
  exec o pos p = (tr, r) -> tr = pre ++ x :: post -> reaches f pre = false -> f (fst x) = true ->
  reaching f p (fun tr' r' => exists pre' x' post', tr' = pre' ++ x' :: post' /\ reaches f pre' = false /\
                   f (fst x') = true /\ (pre' = pre -> x' = x -> post' = post -> r' = r -> G)) ->
  G.
Proof.
  destruct x as [s a]. intros E T R F H.
  destruct (H _ _ _ _ E) as (pre' & x' & post' & T' & R' & F' & HG); [rewrite T; apply reaches_hit, F|].
  rewrite T in T'. apply (first_split_unique f) in T' as (<- & <- & <-); auto.
Qed.

(* what a trace of _handle_pull_request that lands passes in pr_decide, pr_after_push, pr_update and pr_inner *)
Definition decide_pre (c : cfg) (needed : bool) : list (stage * ans) :=
  (if use_queue c then [(SBuildQueues, AOk)] else []) ++ [(SIsNeeded, AB needed)] ++
  (if needed then [(SQueueValidate, AOk)] else if use_queue c then [(SQueuesDelete, AOk)] else []).

Definition landing_stage (needed : bool) : stage := if needed then SAddToQueue else SMergeIntegration.

Definition after_pre (children newly : bool) : list (stage * ans) :=
  [(SCreatePRs, AB children); (SNewlyCreated, AB newly)] ++
  (if children then [(SSkew, AOk)] else []) ++ (if newly then [(SNotify, AOk)] else []) ++
  [(SApprovals, AOk); (SBuildStatus, AOk)].

Definition update_pre (c : cfg) (insync : bool) : list (stage * ans) :=
  [(SInSync, AB insync); (SUpdate, AOk)] ++ (if use_queue c && insync then [(SResetW, AOk)] else []) ++
  [(SPushW, AOk)].

Definition inner_pre (c : cfg) (q : bool) : list (stage * ans) :=
  [(SEarlyChecks, AOk); (SGreetings, AOk); (SComments, AOk); (SDependencies, AOk); (SClone, AOk)] ++
  (if declined c then [(SDeclined, AOk)] else []) ++
  [(SDstIncludesSrc, AB false); (SSrcExists, AB true); (SCommitDiff, AOk); (SBuildCascade, AOk);
   (SValidate1, AOk); (SBranchCompat, AOk); (SJira, AOk); (SCheckIntegration, AOk); (SCreateIntegration, AOk)] ++
  (if use_queue c then (SAlreadyInQueue, AB q) :: (if q then [(SMergeQueuesNested, AOk)] else []) else []).

(* the prefix of a landing trace: everything up to (not including) the landing stage *)
Definition landing_prefix (c : cfg) (q insync children newly needed : bool) : list (stage * ans) :=
  inner_pre c q ++ update_pre c insync ++ after_pre children newly ++ decide_pre c needed.

(* the stages of the straight part of _handle_pull_request, before update_integration_branches *)
Definition inner_prefix_stage (s : stage) : bool :=
  match s with
  | SEarlyChecks | SGreetings | SComments | SDependencies | SClone | SDeclined | SDstIncludesSrc | SSrcExists
  | SCommitDiff | SBuildCascade | SValidate1 | SBranchCompat | SJira | SCheckIntegration | SCreateIntegration
  | SAlreadyInQueue | SMergeQueuesNested => true
  | _ => false
  end.

(* a trace that reaches something after the straight part has passed the straight part *)
Lemma inner_reaching f c Q :
  (forall s, inner_prefix_stage s = true -> f s = false) ->
  (forall q, reaching f (pr_update c) (fun tr => Q (inner_pre c q ++ tr))) -> reaching f (pr_inner c) Q.
Proof.
  intros Hf K. unfold pr_inner.
  do 5 (apply reaching_call; [apply Hf; reflexivity|]).
  apply reaching_when_call; [apply Hf; reflexivity|].
  apply reaching_callb; [apply Hf; reflexivity|]. intros [|]; [apply reaching_done|].
  apply reaching_callb; [apply Hf; reflexivity|]. intros [|]; [|apply reaching_done].
  do 7 (apply reaching_call; [apply Hf; reflexivity|]).
  destruct (use_queue c) eqn:U; cbn [when].
  - apply reaching_callb; [apply Hf; reflexivity|]. intros q.
    apply reaching_when_call; [apply Hf; reflexivity|].
    eapply reaching_mono; [apply (K q)|]. intros tr r. unfold inner_pre. rewrite U, <- !app_assoc. trivial.
  - eapply reaching_mono; [apply (K false)|]. intros tr r. unfold inner_pre. rewrite U, <- !app_assoc. trivial.
Qed.

Lemma update_reaching c Q :
  (forall insync, reaching lands (pr_after_push c) (fun tr => Q (update_pre c insync ++ tr))) ->
  reaching lands (pr_update c) Q.
Proof.
  intros K. unfold pr_update. apply reaching_callb; [reflexivity|]. intros insync.
  apply reaching_ask; [reflexivity|]. intros [ | | | kd n | ]; try apply reaching_done.
  - apply reaching_when_call; [reflexivity|]. apply reaching_call; [reflexivity|].
    eapply reaching_mono; [apply (K insync)|]. intros tr r. unfold update_pre. rewrite <- !app_assoc. trivial.
  - destruct (n =? "Conflict"); [apply reaching_call; [reflexivity|] |]; apply reaching_done.
Qed.

Lemma after_reaching c Q :
  (forall children newly, reaching lands (pr_decide c) (fun tr => Q (after_pre children newly ++ tr))) ->
  reaching lands (pr_after_push c) Q.
Proof.
  intros K. unfold pr_after_push. apply reaching_callb; [reflexivity|]. intros children.
  apply reaching_callb; [reflexivity|]. intros newly.
  do 2 (apply reaching_when_call; [reflexivity|]). do 2 (apply reaching_call; [reflexivity|]).
  eapply reaching_mono; [apply (K children newly)|]. intros tr r. unfold after_pre. rewrite <- !app_assoc. trivial.
Qed.

Lemma decide_reaching c Q :
  (forall needed a post r, Q (decide_pre c needed ++ (landing_stage needed, a) :: post) r) ->
  reaching lands (pr_decide c) Q.
Proof.
  intros K. unfold pr_decide. apply reaching_when_call; [reflexivity|].
  apply reaching_callb; [reflexivity|]. intros needed.
  assert (K' := K needed). unfold decide_pre in K'. destruct needed.
  - apply reaching_ask; [reflexivity|]. intros [ | | | kd n | ]; try apply reaching_done.
    + apply reaching_here. intros a o pos post r _. specialize (K' a post r). rewrite <- !app_assoc in K'. exact K'.
    + destruct (n =? "IncoherentQueues"); apply reaching_done.
  - apply reaching_when_call; [reflexivity|].
    apply reaching_here. intros a o pos post r _. specialize (K' a post r). rewrite <- !app_assoc in K'. exact K'.
Qed.

Theorem inner_landing_shape : forall c o pos tr r,
  exec o pos (pr_inner c) = (tr, r) -> reaches lands tr = true ->
  exists q insync children newly needed a post,
    tr = landing_prefix c q insync children newly needed ++ (landing_stage needed, a) :: post.
Proof.
  intros c. apply inner_reaching; [intros []; (reflexivity || discriminate)|]. intros q.
  apply update_reaching. intros insync. apply after_reaching. intros children newly.
  apply decide_reaching. intros needed a post r. exists q, insync, children, newly, needed, a, post.
  unfold landing_prefix. rewrite <- !app_assoc. reflexivity.
Qed.

Definition gate_answers : list (stage * ans) :=
  [(SEarlyChecks, AOk); (SComments, AOk); (SDependencies, AOk); (SClone, AOk); (SDstIncludesSrc, AB false);
   (SSrcExists, AB true); (SCommitDiff, AOk); (SBuildCascade, AOk); (SValidate1, AOk); (SBranchCompat, AOk);
   (SJira, AOk); (SCheckIntegration, AOk); (SCreateIntegration, AOk); (SUpdate, AOk); (SPushW, AOk);
   (SApprovals, AOk); (SBuildStatus, AOk)].

(* Facts about landing_prefix are computed segment by segment, so that the optional steps of one segment do not
   multiply the cases of the others. *)

(* nothing in the prefix lands: the landing stage of the shape is the FIRST one *)
Lemma landing_prefix_no_landing c q insync children newly needed :
  reaches lands (landing_prefix c q insync children newly needed) = false.
Proof.
  unfold landing_prefix. rewrite !reaches_app, !orb_false_iff. repeat split.
  - unfold inner_pre. destruct (declined c), (use_queue c), q; reflexivity.
  - unfold update_pre. destruct (use_queue c && insync); reflexivity.
  - unfold after_pre. destruct children, newly; reflexivity.
  - unfold decide_pre. destruct (use_queue c), needed; reflexivity.
Qed.

(* the gate answers are the entries of the prefix at the gates' stages, in the order they were given *)
Lemma landing_prefix_gates c q insync children newly needed :
  filter (fun sa => existsb (stage_eqb (fst sa)) (stages gate_answers))
         (landing_prefix c q insync children newly needed) = gate_answers.
Proof.
  unfold landing_prefix. rewrite !filter_app.
  transitivity (firstn 13 gate_answers ++ [(SUpdate, AOk); (SPushW, AOk)] ++
                [(SApprovals, AOk); (SBuildStatus, AOk)] ++ []); [|reflexivity].
  repeat f_equal.
  - unfold inner_pre. destruct (declined c), (use_queue c), q; reflexivity.
  - unfold update_pre. destruct (use_queue c && insync); reflexivity.
  - unfold after_pre. destruct children, newly; reflexivity.
  - unfold decide_pre. destruct (use_queue c), needed; reflexivity.
Qed.

Lemma landing_prefix_no_exception c q insync children newly needed x kd n :
  ~ In (x, ARaise kd n) (landing_prefix c q insync children newly needed).
Proof.
  assert (B : forallb (fun sa => match snd sa with ARaise _ _ => false | _ => true end)
                      (landing_prefix c q insync children newly needed) = true).
  { unfold landing_prefix. rewrite !forallb_app, !andb_true_iff. repeat split.
    - unfold inner_pre. destruct (declined c), (use_queue c), q; reflexivity.
    - unfold update_pre. destruct (use_queue c && insync); reflexivity.
    - unfold after_pre. destruct children, newly; reflexivity.
    - unfold decide_pre. destruct (use_queue c), needed; reflexivity. }
  intros I. rewrite forallb_forall in B. discriminate (B _ I).
Qed.

(* C06_gate_is_last; also what EndToEndProofs.v reads the two gate answers off *)
Theorem inner_gates_are_last : forall c o pos tr r,
  exec o pos (pr_inner c) = (tr, r) -> reaches lands tr = true ->
  exists pre needed a post,
    tr = pre ++ [(SApprovals, AOk); (SBuildStatus, AOk)] ++ decide_pre c needed ++ (landing_stage needed, a) :: post.
Proof.
  intros c o pos tr r H R.
  destruct (inner_landing_shape _ _ _ _ _ H R) as (q & insync & children & newly & needed & a & post & ->).
  exists (inner_pre c q ++ update_pre c insync ++ [(SCreatePRs, AB children); (SNewlyCreated, AB newly)] ++
          (if children then [(SSkew, AOk)] else []) ++ (if newly then [(SNotify, AOk)] else [])),
         needed, a, post.
  unfold landing_prefix, after_pre. rewrite <- !app_assoc. reflexivity.
Qed.

Theorem inner_no_exception_before_landing : forall c o pos tr r,
  exec o pos (pr_inner c) = (tr, r) -> reaches lands tr = true ->
  exists pre s a post, tr = pre ++ (s, a) :: post /\ lands s = true /\
    forall x kd n, ~ In (x, ARaise kd n) pre.
Proof.
  intros c o pos tr r H R.
  destruct (inner_landing_shape _ _ _ _ _ H R) as (q & insync & children & newly & needed & a & post & ->).
  exists (landing_prefix c q insync children newly needed), (landing_stage needed), a, post.
  split; [reflexivity|]. split; [destruct needed; reflexivity|]. intros x kd n. apply landing_prefix_no_exception.
Qed.

(* the stages that can have run when stage [s] is the one that raised, on the straight part of the handler *)
Fixpoint upto (s : stage) (l : list stage) : list stage :=
  match l with [] => [] | x :: t => if stage_eqb x s then [x] else x :: upto s t end.

(* A program is [strict] when, at every call site, an exception ends the handler at once - except at the call
   sites listed in [handled], where the code has an except clause that does something first (Conflict -> push the
   partial result; TemplateException -> notify_user) and then lets the exception go on. *)
Definition handled (s : stage) : bool :=
  match s with SUpdate | SInner => true | _ => false end.

Inductive strict : prog -> Prop :=
| strict_done r : strict (Done r)
| strict_ask s k :
    (forall a, strict (k a)) ->
    (handled s = false -> forall kd n, exists m, k (ARaise kd n) = Done (ORaise m)) ->
    strict (Ask s k).

Lemma strict_call s k : strict k -> strict (call s k).
Proof.
  intros K. constructor.
  - intros []; try apply strict_done. exact K.
  - intros _ kd n. eexists; reflexivity.
Qed.

Lemma strict_callb s k : (forall b, strict (k b)) -> strict (callb s k).
Proof.
  intros K. constructor.
  - intros []; try apply strict_done. apply K.
  - intros _ kd n. eexists; reflexivity.
Qed.

Lemma strict_when b f k : (strict k -> strict (f k)) -> strict k -> strict (when b f k).
Proof. destruct b; auto. Qed.

Lemma strict_times n body k : (forall p, strict p -> strict (body p)) -> strict k -> strict (times n body k).
Proof. intros B K. induction n; cbn [times]; auto. Qed.

Lemma strict_decide c : strict (pr_decide c).
Proof.
  unfold pr_decide. apply strict_when; [apply strict_call|]. apply strict_callb. intros [|].
  - constructor.
    + intros [ | | | kd n | ]; try apply strict_done.
      * repeat apply strict_call. constructor.
      * destruct (n =? "IncoherentQueues"); constructor.
    + intros _ kd n. destruct (n =? "IncoherentQueues"); eexists; reflexivity.
  - apply strict_when; [apply strict_call|]. repeat apply strict_call. constructor.
Qed.

Lemma strict_after c : strict (pr_after_push c).
Proof.
  unfold pr_after_push. do 2 (apply strict_callb; intros ?). do 2 (apply strict_when; [apply strict_call|]).
  do 2 apply strict_call. apply strict_decide.
Qed.

Lemma strict_update c : strict (pr_update c).
Proof.
  unfold pr_update. apply strict_callb. intros insync. constructor; [|discriminate].
  intros [ | | | kd n | ]; try apply strict_done.
  - apply strict_when; [apply strict_call|]. apply strict_call, strict_after.
  - destruct (n =? "Conflict"); [apply strict_call|]; constructor.
Qed.

Lemma strict_inner c : strict (pr_inner c).
Proof.
  unfold pr_inner. do 5 apply strict_call. apply strict_when; [apply strict_call|].
  apply strict_callb. intros [|]; [constructor|].
  apply strict_callb. intros [|]; [|constructor].
  do 7 apply strict_call. apply strict_when; [|apply strict_update].
  intros K. apply strict_callb. intros q. apply strict_when; [apply strict_call | exact K].
Qed.

Lemma strict_queues : strict queues_prog.
Proof.
  unfold queues_prog. do 5 apply strict_call. constructor; [|intros _ kd n; eexists; reflexivity].
  intros [ | | n failed | | ]; try apply strict_done. destruct (n =? 0)%nat.
  - destruct failed; [apply strict_call|]; constructor.
  - apply strict_call, strict_times; [intros p P; do 2 apply strict_call; exact P|].
    apply strict_call. constructor.
Qed.

Lemma strict_commit c : strict (commit_prog c).
Proof.
  unfold commit_prog. constructor; [|intros _ kd n; eexists; reflexivity].
  intros [ | | n anyq | | ]; try apply strict_done.
  destruct (n =? 0)%nat; [constructor|].
  destruct (use_queue c && anyq); [apply strict_call; constructor|].
  apply strict_callb. intros [|]; [apply strict_call|]; constructor.
Qed.

(* in a strict program the trace ends right after the first exception raised at an unhandled call site, and the
   handler itself ends with an exception: no refusal is swallowed *)
Lemma strict_stops : forall p, strict p -> forall o pos tr r pre s kd n post,
  exec o pos p = (tr, r) -> tr = pre ++ (s, ARaise kd n) :: post -> handled s = false ->
  post = [] /\ exists m, r = ORaise m.
Proof.
  induction 1 as [r0 | s0 k K IH Hh]; intros o pos tr r pre s kd n post E T Hs.
  - injection E as <- _. destruct pre; discriminate.
  - apply exec_ask_inv in E as (t & -> & E). destruct pre as [|x pre].
    + injection T as -> A ->. destruct (Hh Hs kd n) as (m & D). rewrite A, D in E. injection E as <- <-. eauto.
    + injection T as _ ->. eapply IH; eauto.
Qed.

(* C04_C06_C07_C11_C12_refusal_is_final: [handled] leaves out update_integration_branches, the one call of
   _handle_pull_request whose exception the code catches - for that one see inner_update_raise *)
Theorem inner_refusal_is_final : forall c o pos tr r pre s kd n post,
  exec o pos (pr_inner c) = (tr, r) -> tr = pre ++ (s, ARaise kd n) :: post -> handled s = false ->
  post = [] /\ exists m, r = ORaise m.
Proof. intros c. exact (strict_stops _ (strict_inner c)). Qed.

Theorem commit_refusal_is_final : forall c o pos tr r pre s kd n post,
  exec o pos (commit_prog c) = (tr, r) -> tr = pre ++ (s, ARaise kd n) :: post -> handled s = false ->
  post = [] /\ exists m, r = ORaise m.
Proof. intros c. exact (strict_stops _ (strict_commit c)). Qed.

Definition jira_pre (c : cfg) : list (stage * ans) :=
  [(SEarlyChecks, AOk); (SGreetings, AOk); (SComments, AOk); (SDependencies, AOk); (SClone, AOk)] ++
  (if declined c then [(SDeclined, AOk)] else []) ++
  [(SDstIncludesSrc, AB false); (SSrcExists, AB true); (SCommitDiff, AOk); (SBuildCascade, AOk);
   (SValidate1, AOk); (SBranchCompat, AOk)].

Lemma jira_reaching c Q :
  (forall a t r, Q (jira_pre c ++ (SJira, a) :: t) r) -> reaching (is_stage SJira) (pr_inner c) Q.
Proof.
  intros K. unfold pr_inner.
  do 5 (apply reaching_call; [reflexivity|]). apply reaching_when_call; [reflexivity|].
  apply reaching_callb; [reflexivity|]. intros [|]; [apply reaching_done|].
  apply reaching_callb; [reflexivity|]. intros [|]; [|apply reaching_done].
  do 4 (apply reaching_call; [reflexivity|]).
  apply reaching_here. intros a o pos t r _. specialize (K a t r). unfold jira_pre in K.
  rewrite <- !app_assoc in K. exact K.
Qed.

(* Up to its call of jira_checks an evaluation has written nothing to the repository: what ran before is exactly
   the list [jira_pre] (the clone is local; integration branches are created strictly later). *)
Theorem inner_before_jira : forall c o pos tr r pre a post,
  exec o pos (pr_inner c) = (tr, r) -> declined c = false ->
  tr = pre ++ (SJira, a) :: post -> reaches (is_stage SJira) pre = false ->
  pre = jira_pre c /\ reaches writes_repo pre = false.
Proof.
  intros c o pos tr r pre a post H D T P.
  enough (pre = jira_pre c) as -> by (unfold jira_pre; rewrite D; split; reflexivity).
  apply (reaching_first (is_stage SJira) _ _ H T P eq_refl). apply jira_reaching.
  intros a' t r'. exists (jira_pre c), (SJira, a'), t.
  split; [reflexivity|]. split; [unfold jira_pre; destruct (declined c); reflexivity|]. auto.
Qed.

(* conflict_handler: with inner_refusal_is_final this covers every call site of _handle_pull_request *)
Theorem inner_update_raise : forall c o pos tr r pre kd n post,
  exec o pos (pr_inner c) = (tr, r) -> tr = pre ++ (SUpdate, ARaise kd n) :: post ->
  reaches (is_stage SUpdate) pre = false ->
  (n = "Conflict" -> exists a, post = [(SPushPartial, a)] /\ (a = AOk -> r = ORaise n)) /\
  (n <> "Conflict" -> post = [] /\ r = ORaise n).
Proof.
  intros c o pos tr r pre kd n post H T P.
  apply (reaching_first (is_stage SUpdate) _ _ H T P eq_refl).
  clear. apply inner_reaching; [intros []; (reflexivity || discriminate)|]. intros q.
  unfold pr_update. apply reaching_callb; [reflexivity|]. intros insync.
  apply reaching_here. intros a o' pos' post' r' E.
  exists (inner_pre c q ++ [(SInSync, AB insync)]), (SUpdate, a), post'.
  split; [rewrite <- app_assoc; reflexivity|].
  split; [unfold inner_pre; destruct (declined c), (use_queue c), q; reflexivity|].
  split; [reflexivity|]. intros _ [= ->] -> ->.
  destruct (String.eqb_spec n "Conflict") as [C|C].
  - split; [intros _ | contradiction]. apply exec_ask_inv in E as (t & -> & E).
    exists (o' pos' SPushPartial). destruct (o' pos' SPushPartial); injection E as <- <-;
      (split; [reflexivity | intros [=]; reflexivity]).
  - injection E as <- <-. split; [contradiction | auto].
Qed.

(* handle_merge_queues: what every trace that gets as far as merge_queues starts with *)
Definition queues_pre (n : nat) (failed : bool) : list (stage * ans) :=
  [(SClone, AOk); (SCascadeBuild, AOk); (SBuildQueues, AOk); (SQueueValidate, AOk); (SUpdateQueueStatus, AOk);
   (SSelection, AN n failed)].

(* the stages of handle_merge_queues before merge_queues *)
Definition queues_prefix_stage (s : stage) : bool :=
  match s with
  | SClone | SCascadeBuild | SBuildQueues | SQueueValidate | SUpdateQueueStatus | SSelection | SNotifyQueueFailed => true
  | _ => false
  end.

(* a trace that reaches something from merge_queues on has passed the validation and selected something *)
Lemma queues_reaching f Q :
  (forall s, queues_prefix_stage s = true -> f s = false) ->
  (forall n failed, n <> 0 ->
     reaching f (call SMergeQueues (times n (fun k => call SCloseQueued (call SAddMergedQ k))
                                          (call SPushPrune (Done (ORaise "Merged")))))
              (fun tr => Q (queues_pre n failed ++ tr))) ->
  reaching f queues_prog Q.
Proof.
  intros Hf K. unfold queues_prog.
  do 5 (apply reaching_call; [apply Hf; reflexivity|]). apply reaching_ask; [apply Hf; reflexivity|].
  intros [ | | n failed | | ]; try apply reaching_done. destruct (Nat.eqb_spec n 0) as [|N].
  - destruct failed; [apply reaching_call; [apply Hf; reflexivity|] |]; apply reaching_done.
  - exact (K n failed N).
Qed.

(* C12_held_stops_before_clone: the trace is a prefix of the first four calls *)
Theorem inner_held : forall c o tr r,
  exec o 0 (pr_inner c) = (tr, r) ->
  (exists kd n, o 3 SDependencies = ARaise kd n) ->
  reaches writes_repo tr = false /\ reaches lands tr = false /\ ~ In SClone (stages tr).
Proof.
  intros c o tr r H (kd & n & E). unfold pr_inner in H.
  (* each of the first three calls either ends the trace or returned *)
  do 3 (apply exec_call_inv in H as [(? & _ & -> & H) | (_ & ->)]; [|cbn; intuition discriminate]).
  apply exec_call_stop in H as ->; [|rewrite E; discriminate].
  cbn. intuition discriminate.
Qed.

Theorem outer_notifies_iff_template : forall c o tr r,
  robot_authored c = false -> exec o 0 (pr_outer c) = (tr, r) ->
  (In SNotifyUser (stages tr) <-> exists n, o 0 SInner = ARaise ETemplate n).
Proof.
  intros c o tr r B H. unfold pr_outer in H. rewrite B in H. apply exec_ask_inv in H as (t & -> & H).
  destruct (o 0 SInner) as [ | | | [] n | ].
  (* every answer but a TemplateException ends the handler: the trace is [SInner] *)
  all: try (injection H as <- _; split; [intros [[=] | []] | intros (? & [=])]).
  (* a TemplateException: notify_user is the next call *)
  apply exec_ask_inv in H as (t' & -> & _). split.
  - eauto.
  - intros _. right. left. reflexivity.
Qed.

Theorem commit_dispatch : forall c o tr r n anyq,
  exec o 0 (commit_prog c) = (tr, r) -> o 0 SBranchesOfCommit = AN n anyq -> n <> 0 ->
  if use_queue c && anyq
  then stages tr = [SBranchesOfCommit; SMergeQueuesNested]
  else exists rest, stages tr = SBranchesOfCommit :: SGetPRs :: rest /\ ~ In SMergeQueuesNested rest.
Proof.
  intros c o tr r n anyq H E N. apply exec_ask_inv in H as (t & -> & H). rewrite E in H.
  apply Nat.eqb_neq in N. rewrite N in H. destruct (use_queue c && anyq).
  - (* the queue evaluation is the one call left, whatever it answers *)
    apply exec_call_inv in H as [(t' & _ & -> & H) | (_ & ->)].
    + injection H as <- _. reflexivity.
    + reflexivity.
  - apply exec_ask_inv in H as (t' & -> & H). exists (stages t'). split; [reflexivity|].
    destruct (o 1 SGetPRs) as [ | [|] | | | ].
    (* unless a pull request was found the trace ends here *)
    all: try (injection H as <- _; intros []).
    apply exec_call_inv in H as [(t'' & _ & -> & H) | (_ & ->)].
    + injection H as <- _. intros [[=] | []].
    + intros [[=] | []].
Qed.

(* concrete oracles: the hypotheses of the theorems about landing can be met, and a gate can refuse *)
Definition all_ok (needed : bool) : nat -> stage -> ans :=
  fun _ s => match s with
             | SDstIncludesSrc => AB false | SSrcExists => AB true | SAlreadyInQueue => AB false
             | SInSync => AB true | SCreatePRs => AB true | SNewlyCreated => AB false | SIsNeeded => AB needed
             | _ => AOk
             end.

Example queued_run :
  run_handler HInner {| use_queue := true; declined := false; robot_authored := false |}
    [AOk; AOk; AOk; AOk; AOk; AB false; AB true; AOk; AOk; AOk; AOk; AOk; AOk; AOk; AB false; AB true; AOk; AOk;
     AOk; AB true; AB false; AOk; AOk; AOk; AOk; AB true; AOk; AOk; AOk]
  = (["early_checks"; "send_greetings"; "handle_comments"; "check_dependencies"; "clone_git_repo";
      "Branch.includes_commit"; "Branch.exists"; "check_commit_diff"; "build_branch_cascade";
      "BranchCascade.validate"; "check_branch_compatibility"; "jira_checks"; "check_integration_branches";
      "create_integration_branches"; "already_in_queue"; "check_in_sync"; "update_integration_branches";
      "Branch.reset"; "push"; "create_integration_pull_requests"; "newly_created?"; "check_pull_request_skew";
      "check_approvals"; "check_build_status"; "build_queue_collection"; "is_needed";
      "QueueCollection.validate"; "add_to_queue"; "BranchCascade.validate"], ORaise "Queued").
Proof. vm_compute. reflexivity. Qed.

Example landing_premises_satisfiable :
  let c := {| use_queue := true; declined := false; robot_authored := false |} in
  reaches lands (fst (exec (all_ok true) 0 (pr_inner c))) = true /\
  reaches lands (fst (exec (all_ok false) 0 (pr_inner c))) = true /\
  snd (exec (all_ok false) 0 (pr_inner c)) = ORaise "SuccessMessage".
Proof. vm_compute. auto. Qed.

Example approvals_refusal_run :
  let c := {| use_queue := false; declined := false; robot_authored := false |} in
  let o := fun pos s => match s with SApprovals => ARaise ETemplate "ApprovalRequired" | _ => all_ok false pos s end in
  snd (exec o 0 (pr_inner c)) = ORaise "ApprovalRequired" /\
  reaches lands (fst (exec o 0 (pr_inner c))) = false.
Proof. vm_compute. auto. Qed.
