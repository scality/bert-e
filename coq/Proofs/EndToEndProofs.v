(* The handler skeleton composed with the gate models: when the answers of check_approvals and check_build_status
   are the ones Model/Approvals.v and Model/BuildGate.v compute from the gate inputs, a run of _handle_pull_request
   that queues or merges implies that both gate models pass on those inputs (C04_end_to_end and C06_end_to_end of
   Properties/Pipeline.v read the specifications of C04 and C06 off that). *)
From Coq Require Import List String Bool Arith ZArith NArith.
Require Import BertE.Model.Pipeline BertE.Proofs.PipelineProofs.
Require BertE.Model.Approvals BertE.Model.BuildGate.
Import ListNotations.
Open Scope string_scope.
Open Scope list_scope.

(* what the real check_approvals call answers, as a function of the model's outcome on the gate inputs *)
Definition approvals_answer (i : Approvals.inputs) : ans :=
  match Approvals.check_approvals i with
  | Approvals.Pass => AOk
  | Approvals.ApprovalRequired => ARaise ETemplate "ApprovalRequired"
  | Approvals.AttributeErr => ARaise EOther "AttributeError"
  end.

Definition build_answer (bypass nokey : bool) (ss : list BuildGate.bstatus) : ans :=
  match BuildGate.gate bypass nokey ss with
  | BuildGate.Pass => AOk
  | BuildGate.Raise c => ARaise (if String.eqb c "BuildFailed" then ETemplate else ESilent) c
  | BuildGate.KeyErr => ARaise EOther "KeyError"
  | BuildGate.AssertErr => ARaise EOther "AssertionError"
  | BuildGate.EmptyErr => ARaise EOther "ValueError"
  end.

(* the oracle answers what the gate models compute whenever one of the two gates is asked - at EVERY position, so
   wherever in a run the gates come; every other stage stays arbitrary *)
Definition gated (o : nat -> stage -> ans) (i : Approvals.inputs) (bypass nokey : bool)
           (ss : list BuildGate.bstatus) : Prop :=
  forall pos, o pos SApprovals = approvals_answer i /\ o pos SBuildStatus = build_answer bypass nokey ss.

Theorem landing_implies_gates_pass : forall c o pos tr r i bypass nokey ss,
  gated o i bypass nokey ss ->
  exec o pos (pr_inner c) = (tr, r) -> reaches lands tr = true ->
  Approvals.check_approvals i = Approvals.Pass /\ BuildGate.gate bypass nokey ss = BuildGate.Pass.
Proof.
  intros c o pos tr r i bypass nokey ss G E R.
  destruct (inner_gates_are_last _ _ _ _ _ E R) as (pre & needed & a & post & T).
  assert (IA : In (SApprovals, AOk) tr) by (rewrite T; apply in_or_app; right; left; reflexivity).
  assert (IB : In (SBuildStatus, AOk) tr) by (rewrite T; apply in_or_app; right; right; left; reflexivity).
  destruct (exec_answers_from_oracle _ _ _ _ _ _ _ E IA) as (q1 & Q1).
  destruct (exec_answers_from_oracle _ _ _ _ _ _ _ E IB) as (q2 & Q2).
  rewrite (proj1 (G q1)) in Q1. rewrite (proj2 (G q2)) in Q2. split.
  - unfold approvals_answer in Q1. destruct (Approvals.check_approvals i); [reflexivity | discriminate..].
  - unfold build_answer in Q2. destruct (BuildGate.gate bypass nokey ss); [reflexivity | discriminate..].
Qed.

(* a gated oracle exists and lands: the theorem above is not vacuous *)
Definition example_inputs : Approvals.inputs :=
  Approvals.mkInputs 1%Z 0%Z true false false false false false false false false false false false
                     4%N 0%N [3%N] [0%N; 1%N] [0%N; 1%N] [].

Definition example_oracle : nat -> stage -> ans :=
  fun pos s => match s with
               | SApprovals => approvals_answer example_inputs
               | SBuildStatus => build_answer false false [BuildGate.SUCCESSFUL; BuildGate.SUCCESSFUL]
               | _ => all_ok true pos s
               end.

Example gated_oracle_lands :
  gated example_oracle example_inputs false false [BuildGate.SUCCESSFUL; BuildGate.SUCCESSFUL] /\
  reaches lands (fst (exec example_oracle 0
                        (pr_inner {| use_queue := true; declined := false; robot_authored := false |}))) = true.
Proof. split; [intros pos; split; reflexivity | vm_compute; reflexivity]. Qed.
