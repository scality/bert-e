(* C03: with queues on, a destination only advances to a commit that was built.
   - queue merge: every selected destination lands exactly on its selected queue commit (FlowProofs);
   - direct merge (queue skipped because source and integration branches already contain their targets and
     are in sync): every merge is a fast-forward, so each target lands exactly on the integration commit whose
     status the build gate read, and no new commit is created. *)
From Coq Require Import List Bool Arith Lia.
Require Import BertE.Model.Git BertE.Model.Flow BertE.Proofs.GitProofs BertE.Proofs.FlowProofs.
Import ListNotations.

(* The direct merge when the queue is skipped: targets t_i with integration branches w_i such that every w_i
   contains its target and the previous integration branch (in sync).  With the octopus strategy, or with
   consecutive merges that take the integration branch first, nothing new is created: t_i := tip w_i. *)
Definition ff_strategy (sg : strategy) : bool :=
  match sg with Octopus | OctopusRev | ConsecutiveRev => true | Consecutive => false end.

Lemma strategy_ff sg c t prev w xw :
  ff_strategy sg = true -> wf_clone c -> t <> prev -> t <> w ->
  lookup (refs c) w = Some xw -> Below c t w -> Below c prev w ->
  run_ops c (strategy_ops sg t prev w) = Some (mkClone (st c) (update (refs c) t xw)).
Proof.
  intros F W Ntp Ntw Lw Btw Bpw.
  assert (Bww : Below c w w) by (apply Below_refl; [exact W | congruence]).
  destruct sg; try discriminate F; cbn [strategy_ops run_ops op_dst op_srcs]; unfold name in *.
  - rewrite (merge_into_ff c t [prev; w] w xw W); [reflexivity | right; left; reflexivity | exact Lw | exact Btw |].
    intros s [<-|[<-|[]]]; assumption.
  - rewrite (merge_into_ff c t [w; prev] w xw W); [reflexivity | left; reflexivity | exact Lw | exact Btw |].
    intros s [<-|[<-|[]]]; assumption.
  - (* integration branch first (fast-forward); it contains the previous target, whose merge is then up to date *)
    rewrite (merge_into_ff c t [w] w xw W); [| left; reflexivity | exact Lw | exact Btw | intros s [<-|[]]; exact Bww].
    cbv beta iota. rewrite merge_into_uptodate; [reflexivity | | |].
    + apply wf_clone_update; [exact W | exact (proj2 W w xw Lw)].
    + cbn. rewrite lookup_update_eq. discriminate.
    + intros s [<-|[]]. destruct Bpw as (xp & xw' & Lp & Lw' & Apw). rewrite Lw in Lw'. injection Lw' as <-.
      exists xp, xw. cbn. rewrite lookup_update_eq, lookup_update_neq by congruence. auto.
Qed.

(* What the direct merge needs of the clone: from [p] on the integration branches are in sync, and each contains
   its target. *)
Fixpoint ff_chain (c : clone) (p : name) (pairs : list (name * name)) : Prop :=
  match pairs with
  | [] => True
  | (t, w) :: rest => Below c p w /\ Below c t w /\ ff_chain c w rest
  end.

Lemma ff_chain_transport pairs : forall c c' p p',
  extends (st c) (st c') -> lookup (refs c') p' = lookup (refs c) p ->
  (forall t w, In (t, w) pairs -> lookup (refs c') t = lookup (refs c) t /\ lookup (refs c') w = lookup (refs c) w) ->
  ff_chain c p pairs -> ff_chain c' p' pairs.
Proof.
  induction pairs as [|[t w] rest IH]; intros c c' p p' E Up U H; [exact I|].
  destruct H as (Bp & Bt & H). destruct (U t w (or_introl eq_refl)) as [Ut Uw].
  split; [exact (Below_transport c c' p w p' w E Up Uw Bp)|].
  split; [exact (Below_transport c c' t w t w E Ut Uw Bt)|].
  apply (IH c c' w w E Uw); [|exact H]. intros t2 w2 H2. apply U. right. exact H2.
Qed.

Lemma direct_merge_chain pairs : forall sg c prev,
  wf_clone c -> Forall (fun s => ff_strategy s = true) sg -> length sg = length pairs ->
  NoDup (prev :: map fst pairs) ->
  (forall w, In w (map snd pairs) -> ~ In w (prev :: map fst pairs)) ->
  ff_chain c prev pairs ->
  exists c', run_ops c (chain_ops sg prev pairs) = Some c' /\ moved_onto c pairs c'.
Proof.
  induction pairs as [|[t w] rest IH]; intros sg c prev W Fs Len ND Dis Ch.
  - exists c. split; [reflexivity | apply moved_onto_nil].
  - destruct sg as [|s0 sg']; [discriminate Len|]. cbn [chain_ops tl]. rewrite run_ops_app.
    cbn [map fst snd] in ND, Dis. apply NoDup_cons_iff in ND as [Np ND].
    assert (Nt : ~ In t (map fst rest)) by (apply NoDup_cons_iff in ND; tauto).
    assert (Ntp : t <> prev) by (intros ->; apply Np; left; reflexivity).
    assert (Ntw : t <> w) by (intros ->; apply (Dis w); [left; reflexivity | right; left; reflexivity]).
    assert (Apart : forall t2 w2, In (t2, w2) rest -> t2 <> t /\ w2 <> t).
    { intros t2 w2 H2. split; intros ->; [exact (Nt (in_map fst _ _ H2))|].
      apply (Dis t (or_intror (in_map snd _ _ H2))). right; left; reflexivity. }
    destruct Ch as (Bpw & Btw & Ch). pose proof Btw as (xt & xw & Lt & Lw & Atw).
    inversion Fs as [|? ? Fs0 Fs']; subst.
    rewrite (strategy_ff s0 c t prev w xw Fs0 W Ntp Ntw Lw Btw Bpw).
    destruct (IH sg' (mkClone (st c) (update (refs c) t xw)) t) as (c' & R & M).
    + apply wf_clone_update; [exact W | exact (proj2 W w xw Lw)].
    + exact Fs'.
    + cbn in Len. lia.
    + exact ND.
    + intros w' Hw' Hin. apply (Dis w'); [right; exact Hw' | right; exact Hin].
    + (* t now sits on the tip of w; nothing else the chain mentions has moved *)
      apply (ff_chain_transport rest c _ w t); [apply extends_refl | cbn; rewrite Lw; apply lookup_update_eq | | exact Ch].
      intros t2 w2 H2. destruct (Apart t2 w2 H2). cbn. rewrite !lookup_update_neq by assumption. split; reflexivity.
    + exists c'. split; [exact R|]. apply (moved_onto_cons c t w xw rest c' Lw Nt); [|exact M].
      intro K. apply in_map_iff in K as ([t2 w2] & <- & H2). exact (proj2 (Apart t2 w2 H2) eq_refl).
Qed.

Theorem direct_merge_lands_on_built_commits pairs : forall sg c prev,
  wf_clone c -> Forall (fun s => ff_strategy s = true) sg -> length sg = length pairs ->
  NoDup (prev :: map fst pairs) ->
  (forall w, In w (map snd pairs) -> ~ In w (prev :: map fst pairs)) ->
  (* prev already sits on an integration commit contained in the next integration branch *)
  (forall t w, nth_error pairs 0 = Some (t, w) -> Below c prev w) ->
  (forall t w, In (t, w) pairs -> Below c t w) ->
  (forall i t1 w1 t2 w2, nth_error pairs i = Some (t1, w1) -> nth_error pairs (S i) = Some (t2, w2) -> Below c w1 w2) ->
  exists c', run_ops c (chain_ops sg prev pairs) = Some c' /\ moved_onto c pairs c'.
Proof.
  intros sg c prev W Fs Len ND Dis B0 Btw Sync. apply direct_merge_chain; try assumption.
  clear - B0 Btw Sync. revert prev B0.
  induction pairs as [|[t w] rest IH]; intros prev B0; [exact I|].
  split; [exact (B0 t w eq_refl)|]. split; [exact (Btw t w (or_introl eq_refl))|]. apply IH.
  - intros t2 w2 H2. exact (Btw t2 w2 (or_intror H2)).
  - intros i. exact (Sync (S i)).
  - intros t2 w2 H2. exact (Sync 0 t w t2 w2 eq_refl H2).
Qed.

(* the build table: commits for which the build key was reported SUCCESSFUL *)
Section Green.
  Variable green : cid -> Prop.

  Definition tip_green (c : clone) (n : name) : Prop := exists x, lookup (refs c) n = Some x /\ green x.

  (* queue merge: if every selected queue commit is green, every moved destination is on a green commit *)
  Theorem queue_merge_green (later : name -> name -> Prop) c sel c' :
    wf_clone c -> Incl later c -> NoDup (map fst sel) ->
    (forall q, In q (map snd sel) -> ~ In q (map fst sel)) ->
    upward_closed later c (map fst sel) -> in_order later (map fst sel) ->
    (forall d q, In (d, q) sel -> Below c d q) ->
    (forall d1 q1 d2 q2, In (d1, q1) sel -> In (d2, q2) sel -> later d1 d2 -> Below c q1 q2) ->
    (forall d q, In (d, q) sel -> tip_green c q) ->
    merge_queues c sel = Some c' ->
    (forall d q, In (d, q) sel -> tip_green c' d) /\
    (forall n, ~ In n (map fst sel) -> lookup (refs c') n = lookup (refs c) n).
  Proof.
    intros W I ND Dis Up Ord Ff Qq G H.
    destruct (merge_queues_incl later c sel c' W I ND Dis Up Ord Ff Qq H) as (_ & E & U & _).
    split; [|exact U]. intros d q Hin. destruct (G d q Hin) as (x & Lx & Gx).
    exists x. split; [rewrite (E d q Hin); exact Lx | exact Gx].
  Qed.
End Green.

(* non-vacuity: the F12 shape.  An in-sync, up-to-date pull request over three targets: with the integration
   branch merged first (ConsecutiveRev, what the repaired code does) or with the octopus strategy no commit is
   created; with the previous target first (Consecutive, the code before the repair) two unbuilt commits appear. *)
Example direct_merge_example :
  let s0 := [mkCommit [] false; mkCommit [0] false; mkCommit [1] false; mkCommit [2] false;
             mkCommit [1] false; mkCommit [2; 4] true; mkCommit [3; 5] true] in
  let c0 := mkClone s0 [(1, 1); (2, 2); (3, 3); (10, 4); (12, 5); (13, 6)] in
  let pairs := [(1, 10); (2, 12); (3, 13)] in
  (match merge_integration [ConsecutiveRev; ConsecutiveRev] c0 pairs with
   | Some c1 => length (st c1) = 7 /\ lookup (refs c1) 2 = Some 5 /\ lookup (refs c1) 3 = Some 6 | None => False end) /\
  (match merge_integration [Octopus; Octopus] c0 pairs with
   | Some c1 => length (st c1) = 7 /\ lookup (refs c1) 2 = Some 5 /\ lookup (refs c1) 3 = Some 6 | None => False end) /\
  (match merge_integration [Consecutive; Consecutive] c0 pairs with
   | Some c1 => length (st c1) = 11 /\ lookup (refs c1) 2 = Some 8 /\ lookup (refs c1) 3 = Some 10 | None => False end).
Proof. vm_compute. repeat split. Qed.
