(* C05: the repaired _process equals the specification on every well-formed queue state (any number of pull
   requests, versions, hotfix queues, merge paths).  First the facts about the specification's own
   [longest_prefix] and [select]; then, for a state with [WF paths order qs0], what one lookup, one pass over the
   merge paths and the whole loop compute (c05_path_prs, c05_loop), and c05_evaluate_eq / c05_evaluate_force,
   from which Properties/C05.v derives its theorems; last the soundness of [wf_b] and the examples.
   The notions are listed at the head of C05Base.v.  [WF], [get_merge_paths] here are those of Spec/C05Spec.v
   and Model/QueueSel.v. *)
From Coq Require Import String List Bool Arith ZArith Lia.
Require Import BertE.Base.Lists BertE.Generated.Facts_C05 BertE.Model.QueueSel BertE.Spec.C05Spec.
Require Import BertE.Proofs.C05Base.
Import ListNotations.
Open Scope list_scope.
Open Scope Z_scope.

Lemma c05_okS_nil st S : okS st S [] = true.
Proof. apply forallb_forall. intros x _. apply orb_true_r. Qed.

Lemma c05_kept_hf st b S x : In x (hotfix_queues S) -> kept st b x = dropbad st (ints0 x).
Proof. intro Hx. apply filter_In in Hx as [_ Ex]. unfold kept. rewrite Ex. reflexivity. Qed.

Lemma c05_dropbad_ids_suffix st I : suffix (map q_pr (dropbad st I)) (map q_pr I).
Proof. destruct (c05_dropbad_suffix st I) as (pre & E & _). exists (map q_pr pre). rewrite E at 1. apply map_app. Qed.

(* From the newest-first suffixes of the proofs to the oldest-first prefixes of the specification *)

Lemma c05_longest_prefix_app okf o t : forall k, (k <= length o)%nat ->
  longest_prefix okf (o ++ t) k = longest_prefix okf o k.
Proof.
  induction k as [|k IH]; intro Hk; [reflexivity|]. cbn [longest_prefix].
  rewrite firstn_app, (proj2 (Nat.sub_0_le _ _) Hk). cbn [firstn]. rewrite app_nil_r.
  rewrite IH by exact (Nat.lt_le_incl _ _ Hk). reflexivity.
Qed.

Lemma c05_longest_prefix_rev okf : (forall s, okf (rev s) = okf s) ->
  forall order, longest_prefix okf order (length order) = rev (best okf (rev order)).
Proof.
  intro Hrev. induction order as [|x o IH] using rev_ind; [reflexivity|].
  rewrite app_length. cbn [length]. rewrite Nat.add_1_r. cbn [longest_prefix].
  rewrite (firstn_all2 (n := S (length o)) (o ++ [x])) by (rewrite app_length; cbn [length]; lia).
  rewrite rev_app_distr. cbn [rev app best].
  replace (okf (x :: rev o)) with (okf (o ++ [x])) by (rewrite <- Hrev, rev_app_distr; reflexivity).
  destruct (okf (o ++ [x])).
  - cbn [rev]. rewrite rev_involutive. reflexivity.
  - rewrite c05_longest_prefix_app by apply Nat.le_refl. exact IH.
Qed.

Lemma c05_longest_prefix_firstn okf order : forall k,
  longest_prefix okf order k = firstn (length (longest_prefix okf order k)) order.
Proof.
  induction k as [|k IH]; [reflexivity|]. cbn [longest_prefix].
  destruct (okf (firstn (S k) order)); [symmetry; apply c05_firstn_len | exact IH].
Qed.

Lemma c05_longest_prefix_none okf order : forall k,
  (forall j, (0 < j <= k)%nat -> okf (firstn j order) = false) -> longest_prefix okf order k = [].
Proof.
  induction k as [|k IH]; intro H; [reflexivity|]. cbn [longest_prefix].
  rewrite (H (S k)) by lia. apply IH. intros j Hj. apply H. lia.
Qed.

Lemma c05_longest_prefix_max okf order : forall k j,
  (length (longest_prefix okf order k) < j <= k)%nat -> (j <= length order)%nat ->
  okf (firstn j order) = false.
Proof.
  induction k as [|k IH]; intros j Hj Hlen; [lia|]. cbn [longest_prefix] in Hj.
  destruct (okf (firstn (S k) order)) eqn:E.
  - rewrite firstn_length in Hj. lia.
  - destruct (Nat.eq_dec j (S k)) as [->|Hne]; [exact E|]. apply IH; lia.
Qed.

Lemma c05_newest_selected_ext s s' I :
  (forall e, In e I -> mem_z (q_pr e) s = mem_z (q_pr e) s') -> newest_selected s I = newest_selected s' I.
Proof.
  unfold newest_selected. induction I as [|e t IH]; intro H; [reflexivity|]. cbn [find].
  rewrite (H e (or_introl eq_refl)). rewrite IH; [reflexivity|]. intros e' He'. apply H. right; exact He'.
Qed.

Lemma c05_all_green_rev st vs s : all_green st vs (rev s) = all_green st vs s.
Proof.
  apply forallb_ext_in. intros x _. rewrite (c05_newest_selected_ext (rev s) s); [reflexivity|].
  intros e _. apply eq_true_iff_eq. rewrite !c05_mem_z_In. symmetry. apply in_rev.
Qed.

Lemma c05_hf_best st x : forall J pre,
  ints0 x = pre ++ J -> NoDup (map q_pr (ints0 x)) ->
  best (all_green st [x]) (map q_pr J) = map q_pr (dropbad st J).
Proof.
  induction J as [|e r IH]; intros pre HI Hnd; [reflexivity|]. cbn [map best dropbad].
  assert (Hns : newest_selected (q_pr e :: map q_pr r) (q_ints (snd x)) = Some e).
  { fold (ints0 x). rewrite HI. unfold newest_selected. rewrite find_app_skip.
    - cbn [find]. unfold mem_z at 1. cbn [existsb]. rewrite Z.eqb_refl. reflexivity.
    - intros e' He'. apply c05_mem_z_false. rewrite HI in Hnd. exact (c05_NoDup_ids_app pre (e :: r) e' Hnd He'). }
  unfold all_green at 1. cbn [forallb]. rewrite Hns, andb_true_r, c05_bad_green.
  destruct (green st e); cbn [negb]; [reflexivity|].
  apply (IH (pre ++ [e])); [rewrite <- app_assoc; exact HI | exact Hnd].
Qed.

Lemma c05_hf_select st x :
  NoDup (map q_pr (ints0 x)) -> select st [x] (entry_order (snd x)) = rev (map q_pr (dropbad st (ints0 x))).
Proof.
  intro Hnd. unfold select, entry_order.
  rewrite (c05_longest_prefix_rev (all_green st [x]) (c05_all_green_rev st [x])), rev_involutive.
  f_equal. exact (c05_hf_best st x (ints0 x) [] eq_refl Hnd).
Qed.

Lemma c05_newest_selected_nil I : newest_selected [] I = None.
Proof. unfold newest_selected. induction I as [|e t IH]; [reflexivity | exact IH]. Qed.

Lemma c05_longest_prefix_ok okf order : okf [] = true -> forall k, okf (longest_prefix okf order k) = true.
Proof.
  intro H0. induction k as [|k IH]; [exact H0|]. cbn [longest_prefix].
  destruct (okf (firstn (S k) order)) eqn:E; [exact E | exact IH].
Qed.

Lemma c05_select_green st vs o : all_green st vs (select st vs o) = true.
Proof.
  apply c05_longest_prefix_ok, forallb_forall. intros x _. rewrite c05_newest_selected_nil. reflexivity.
Qed.

Lemma c05_select_firstn st vs o : select st vs o = firstn (length (select st vs o)) o.
Proof. apply c05_longest_prefix_firstn. Qed.

Lemma c05_select_maximal st vs o j :
  (length (select st vs o) < j <= length o)%nat -> all_green st vs (firstn j o) = false.
Proof. intro H. apply (c05_longest_prefix_max _ o (length o) j); [exact H | lia]. Qed.

Section C05_WF.
  Variable st : Z -> string.
  Variable paths : list (list version).
  Variable order : list Z.
  Variable qs0 : queues.
  Hypothesis Hwf : WF paths order qs0.

  Lemma c05_nd_ro : NoDup (rev order).
  Proof. apply NoDup_rev. exact (wf_order_nodup _ _ _ Hwf). Qed.

  Lemma c05_main_sorted x :
    In x qs0 -> is_hotfix (fst x) = false -> ints0 x = sel (ints0 x) (rev order).
  Proof.
    intros Hx Ex. destruct x as [v qu]. apply c05_sorted_sel; [exact c05_nd_ro|].
    apply (wf_sorted _ _ _ Hwf v qu), filter_In. split; [exact Hx|]. cbn [fst] in *. rewrite Ex. reflexivity.
  Qed.

  Lemma c05_hf_ids_nodup x : In x (hotfix_queues qs0) -> NoDup (map q_pr (ints0 x)).
  Proof. exact (c05_NoDup_flat_map_each _ _ (fun vq => pr_ids (snd vq)) (hotfix_queues qs0) x (wf_hf_nodup _ _ _ Hwf)). Qed.

  (* the stack of a merge path: its versions and every hotfix queue *)

  Lemma c05_on_path_in p x : In x qs0 -> In (fst x) p -> In x (path_stack p qs0).
  Proof.
    intros Hx Hp. apply filter_In. split; [exact Hx|]. unfold on_path. rewrite (proj2 (c05_in_path _ _) Hp). reflexivity.
  Qed.

  Lemma c05_stack_hf p : hotfix_queues (path_stack p qs0) = hotfix_queues qs0.
  Proof.
    unfold hotfix_queues, path_stack. rewrite filter_filter. apply filter_ext. intro x.
    unfold on_path, is_hotfix. destruct (Nat.eqb_spec (length (fst x)) 4) as [->|_];
      [rewrite andb_true_r; apply orb_true_r | apply andb_false_r].
  Qed.

  Lemma c05_stack_chain p : In p paths ->
    forall x y, In x (path_stack p qs0) -> In y (path_stack p qs0) ->
      is_hotfix (fst x) = false -> is_hotfix (fst y) = false ->
      incl (map q_pr (ints0 x)) (map q_pr (ints0 y)) \/ incl (map q_pr (ints0 y)) (map q_pr (ints0 x)).
  Proof.
    assert (Hmain : forall x, In x (path_stack p qs0) -> is_hotfix (fst x) = false ->
                              In x (main_queues qs0) /\ In (fst x) p).
    { intros x Hx Ex. apply filter_In in Hx as [Hx Hon]. split; [apply filter_In; rewrite Ex; auto|].
      apply orb_true_iff in Hon as [Hon|Hon]; [exact (proj1 (c05_in_path _ _) Hon)|].
      destruct x as [v qu]. pose proof (wf_len _ _ _ Hwf v qu Hx). apply Nat.eqb_neq in Ex.
      apply negb_true_iff, Nat.ltb_ge in Hon. change process_hf_len with 4%nat in Hon. cbn [fst] in *. lia. }
    intros Hp x y Hx Hy Ex Ey. destruct (Hmain x Hx Ex) as [Mx Px], (Hmain y Hy Ey) as [My Py].
    destruct x as [u qu], y as [v qv]. exact (wf_vertical _ _ _ Hwf p u qu v qv Hp Mx My Px Py).
  Qed.

  Lemma c05_last_dev_nonhf g qu : last_dev qs0 = Some (g, qu) -> is_hotfix g = false.
  Proof. intro H. apply find_some in H as [_ Hl]. cbn [fst] in Hl. apply Nat.eqb_eq in Hl. unfold is_hotfix. rewrite Hl. reflexivity. Qed.

  Lemma c05_last_dev_stack p : In p paths -> last_dev (path_stack p qs0) = last_dev qs0.
  Proof.
    intro Hp. unfold last_dev at 1, path_stack. rewrite <- filter_rev. apply c05_find_filter. fold (last_dev qs0).
    intros [g qu] E. pose proof (wf_last_on_paths _ _ _ Hwf) as H. rewrite E in H.
    unfold on_path. cbn [fst]. rewrite (proj2 (c05_in_path _ _) (H p Hp)). reflexivity.
  Qed.

  Definition hf_green : list Z :=
    flat_map (fun x => rev (map q_pr (dropbad st (ints0 x)))) (hotfix_queues qs0).
  Definition mergeable (b : list Z) : list Z := hf_green ++ rev b.
  Definition hf_part (cur : version * queue -> list qint) : list Z :=
    flat_map (fun x => rev (map q_pr (cur x))) (hotfix_queues qs0).

  Lemma c05_hf_green_inv p :
    In p hf_green -> exists x, In x (hotfix_queues qs0) /\ In p (map q_pr (dropbad st (ints0 x))).
  Proof. intro H. apply in_flat_map in H as (x & Hx & Hp). exists x. split; [exact Hx | apply in_rev; exact Hp]. Qed.

  Lemma c05_hf_green_incl p : In p hf_green -> In p (hotfix_prs qs0).
  Proof.
    intro H. apply c05_hf_green_inv in H as (x & Hx & Hp). apply in_flat_map. exists x.
    split; [exact Hx | exact (suffix_In (c05_dropbad_ids_suffix st _) Hp)].
  Qed.

  Lemma c05_suffix_order b p : suffix b (rev order) -> In p b -> In p order.
  Proof. intros Hb Hp. apply in_rev. exact (suffix_In Hb Hp). Qed.

  Lemma c05_extract_kept p b :
    In p paths -> suffix b (rev order) -> extract_pr_ids (map (upd (kept st b)) (path_stack p qs0)) = mergeable b.
  Proof.
    intros Hp Hb.
    assert (Hhf : forall (f : list Z -> list Z),
              flat_map (fun x => f (map q_pr (kept st b x))) (hotfix_queues (path_stack p qs0))
              = flat_map (fun x => f (map q_pr (dropbad st (ints0 x)))) (hotfix_queues qs0)).
    { intro f. rewrite c05_stack_hf. apply flat_map_ext_in. intros x Hx. rewrite (c05_kept_hf st b qs0 x Hx). reflexivity. }
    assert (Hsub : forall q, In q (hotfix_prs (map (upd (kept st b)) (path_stack p qs0))) -> In q (hotfix_prs qs0)).
    { rewrite c05_hotfix_prs_upd, (Hhf (fun l => l)). intros q Hq. apply c05_hf_green_incl.
      apply in_flat_map in Hq as (x & Hx & Hq). apply in_flat_map. exists x. split; [exact Hx | apply -> in_rev; exact Hq]. }
    rewrite (c05_extract _ b).
    - rewrite c05_hf_list_upd, (Hhf (@rev Z)). reflexivity.
    - rewrite c05_hotfix_prs_upd, (Hhf (fun l => l)).
      apply (c05_NoDup_flat_map_sub _ _ (fun x => pr_ids (snd x))); [|exact (wf_hf_nodup _ _ _ Hwf)].
      intros x _. apply c05_dropbad_ids_suffix.
    - exact (suffix_NoDup Hb c05_nd_ro).
    - intros q Hq Hq'. exact (wf_hf_disjoint _ _ _ Hwf q (Hsub q Hq') (c05_suffix_order b q Hb Hq)).
    - rewrite c05_last_dev_upd, (c05_last_dev_stack p Hp).
      pose proof (wf_last_dev _ _ _ Hwf) as Hld. destruct (last_dev qs0) as [[g qu]|] eqn:Eg; cbn [option_map upd fst snd].
      + unfold kept, pr_ids. cbn [fst set_ints q_ints]. rewrite (c05_last_dev_nonhf g qu Eg).
        apply c05_sel_ids. intros q Hq. unfold ints0. cbn [snd]. fold (pr_ids qu). rewrite Hld.
        exact (suffix_In Hb Hq).
      + subst order. destruct Hb as [a Hb]. symmetry in Hb. apply app_eq_nil in Hb as [_ ->]. reflexivity.
  Qed.

  Lemma c05_good_entries l cur :
    suffix l (rev order) -> Good st qs0 l cur -> (entries (map (upd cur) qs0) <= entries qs0)%nat.
  Proof.
    intros [a Hl] Hg. apply c05_entries_upd_le. intros x Hx. specialize (Hg x Hx).
    pose proof (c05_main_sorted x Hx) as Hs. destruct (is_hotfix (fst x)).
    - destruct Hg as (pre & -> & _). rewrite app_length. lia.
    - rewrite Hg. rewrite (Hs eq_refl) at 2. rewrite Hl, c05_sel_app, app_length. lia.
  Qed.

  Lemma c05_path_prs fuel p l cur :
    In p paths -> suffix l (rev order) -> Good st qs0 l cur -> (entries qs0 <= fuel)%nat ->
    path_prs fuel st (map (upd cur) qs0) p = Ok (mergeable (best (okS st (path_stack p qs0)) l)).
  Proof.
    intros Hp Hl Hg Hfuel. unfold path_prs, hotfix_prs. rewrite c05_path_stack_upd.
    rewrite (c05_lookup_shape st order (path_stack p qs0) (wf_order_nodup _ _ _ Hwf) (wf_order_pos _ _ _ Hwf))
      with (l := l).
    - f_equal. apply (c05_extract_kept p _ Hp).
      destruct (c05_best_spec (okS st (path_stack p qs0)) l) as (a & E & _). exact (suffix_trans (ex_intro _ a E) Hl).
    - unfold hotfix_prs. rewrite c05_stack_hf. exact (wf_hf_nodup _ _ _ Hwf).
    - unfold hotfix_prs. rewrite c05_stack_hf. exact (wf_hf_pos _ _ _ Hwf).
    - unfold hotfix_prs. rewrite c05_stack_hf. exact (wf_hf_disjoint _ _ _ Hwf).
    - exact (c05_stack_chain p Hp).
    - exact Hl.
    - intros x Hx. apply Hg. apply filter_In in Hx. apply Hx.
    - rewrite <- c05_path_stack_upd. pose proof (c05_entries_filter (fun vq => on_path p (fst vq)) (map (upd cur) qs0)).
      pose proof (c05_good_entries l cur Hl Hg). unfold path_stack. lia.
  Qed.

  Lemma c05_remove_kept l b cur x :
    suffix l (rev order) -> suffix b l -> Good st qs0 l cur -> In x qs0 ->
    drop_unlisted (mergeable b) (cur x) = kept st b x.
  Proof.
    intros Hl [ab ->] Hg Hx. specialize (Hg x Hx). unfold kept. destruct (is_hotfix (fst x)) eqn:Ex.
    - assert (Hxh : In x (hotfix_queues qs0)) by (apply filter_In; split; assumption).
      destruct Hg as (pre & Hp & Hb). pose proof (c05_hf_ids_nodup x Hxh) as Hnd.
      destruct (c05_dropbad_suffix st (cur x)) as (pre2 & E & _).
      rewrite Hp, (c05_dropbad_app _ _ _ Hb). rewrite Hp, E, app_assoc in Hnd.
      set (D := dropbad st (cur x)) in *. rewrite E. apply c05_drop_unlisted_app.
      + intros e He Hin.
        assert (Hex : In (q_pr e) (map q_pr (ints0 x)))
          by (rewrite Hp, E; apply in_map, in_or_app; right; apply in_or_app; left; exact He).
        apply in_app_or in Hin as [Hin|Hin].
        * (* it would be both before and after the first green commit of its queue *)
          apply c05_hf_green_inv in Hin as (y & Hy & Hin). pose proof Hy as Hy'. apply filter_In in Hy' as [Hyq Ey].
          assert (x = y) by exact (c05_hf_unique qs0 (wf_hf_nodup _ _ _ Hwf) x y _ Hx Hyq Ex Ey Hex
                                     (suffix_In (c05_dropbad_ids_suffix st _) Hin)).
          subst y. rewrite Hp, (c05_dropbad_app _ _ _ Hb) in Hin.
          exact (c05_NoDup_ids_app (pre ++ pre2) D e Hnd (in_or_app _ _ _ (or_intror He)) Hin).
        * apply (wf_hf_disjoint _ _ _ Hwf _ (c05_hf_in qs0 x _ Hx Ex Hex)), (c05_suffix_order _ _ Hl).
          apply in_or_app. right. apply in_rev. exact Hin.
      + intros e He. apply in_or_app. left. apply in_flat_map. exists x. split; [exact Hxh|].
        apply -> in_rev. rewrite Hp, (c05_dropbad_app _ _ _ Hb). exact (in_map _ _ _ He).
    - rewrite Hg, c05_sel_app. apply c05_drop_unlisted_app.
      + intros e He Hin. apply c05_sel_In in He as [He _].
        pose proof (suffix_NoDup Hl c05_nd_ro) as Hndl. apply NoDup_app_iff in Hndl as (_ & _ & Hdis).
        apply in_app_or in Hin as [Hin|Hin]; [|apply in_rev in Hin; exact (Hdis _ He Hin)].
        apply (wf_hf_disjoint _ _ _ Hwf _ (c05_hf_green_incl _ Hin)), (c05_suffix_order _ _ Hl). apply in_or_app. left; exact He.
      + intros e He. apply in_or_app. right. apply -> in_rev. exact (proj1 (c05_sel_In _ _ _ He)).
  Qed.

  Lemma c05_best_path p l : best (okS st qs0) (best (okS st (path_stack p qs0)) l) = best (okS st qs0) l.
  Proof.
    destruct (c05_best_spec (okS st (path_stack p qs0)) l) as (ab & Hab & Hbad & _).
    rewrite Hab at 2. symmetry. apply c05_best_skip. intros a1 a2 E Hne.
    destruct (okS st qs0 (a2 ++ _)) eqn:Eok; [|reflexivity].
    rewrite <- (Hbad a1 a2 E Hne). symmetry. unfold okS in *. rewrite forallb_forall in *.
    intros x Hx. apply Eok. apply filter_In in Hx. apply Hx.
  Qed.

  Lemma c05_loop_stop l cur m' :
    Good st qs0 l cur ->
    (m' = hf_part cur ++ rev l \/ exists p, In p paths /\ m' = mergeable (best (okS st (path_stack p qs0)) l)) ->
    (forall p, In p paths -> (length m' <= length (mergeable (best (okS st (path_stack p qs0)) l)))%nat) ->
    length m' = length (hf_part cur ++ rev l) ->
    m' = mergeable (best (okS st qs0) l).
  Proof.
    (* by counting: nothing was shorter, so every path allows all of l and every hotfix tip is green *)
    intros Hg Hc Hall Hlen. rewrite app_length, rev_length in Hlen.
    destruct (c05_flat_map_length_eq _ _ (fun x => rev (map q_pr (cur x)))
                (fun x => rev (map q_pr (dropbad st (ints0 x)))) (hotfix_queues qs0)) as [Hle1 Heq1].
    { intros x Hx. apply filter_In in Hx as [Hx Ex]. pose proof (Hg x Hx) as Hgx. rewrite Ex in Hgx.
      destruct Hgx as (pre & -> & Hb). rewrite (c05_dropbad_app _ _ _ Hb), !rev_length, !map_length.
      destruct (c05_dropbad_suffix st (cur x)) as (pre2 & E & _).
      destruct (suffix_length (ex_intro _ pre2 E)) as [H1 H2]. split; [exact H1|]. intro H. rewrite <- (H2 H). reflexivity. }
    fold hf_green (hf_part cur) in Hle1, Heq1.
    assert (Hb : forall p, In p paths -> best (okS st (path_stack p qs0)) l = l
                                         /\ (length (hf_part cur) <= length hf_green)%nat).
    { intros p Hp. specialize (Hall p Hp). unfold mergeable in Hall. rewrite app_length, rev_length in Hall.
      destruct (c05_best_spec (okS st (path_stack p qs0)) l) as (ab & E & _).
      destruct (suffix_length (ex_intro _ ab E)) as [H1 H2]. split; [symmetry; apply H2|]; lia. }
    destruct (c05_nonempty_in _ paths (wf_paths _ _ _ Hwf)) as [p1 Hp1].
    assert (HFeq : hf_part cur = hf_green) by (apply Heq1, (Hb p1 Hp1)).
    assert (Hok : okS st qs0 l = true).
    { apply forallb_forall. intros x Hx. destruct (is_hotfix (fst x)) eqn:Ex; [reflexivity|].
      destruct x as [v qu]. destruct (wf_covered _ _ _ Hwf v qu) as (p & Hp & Hv); [apply filter_In; rewrite Ex; auto|].
      destruct (Hb p Hp) as [Hbp _].
      destruct (c05_best_spec (okS st (path_stack p qs0)) l) as (_ & _ & _ & H). rewrite Hbp in H.
      assert (Hokp : okS st (path_stack p qs0) l = true) by (destruct H as [->|H]; [apply c05_okS_nil | exact H]).
      unfold okS in Hokp. rewrite forallb_forall in Hokp.
      specialize (Hokp (v, qu) (c05_on_path_in p (v, qu) Hx Hv)). rewrite Ex in Hokp. exact Hokp. }
    rewrite (c05_best_fix _ _ Hok). unfold mergeable. rewrite <- HFeq.
    destruct Hc as [->|(p & Hp & ->)]; [reflexivity|]. destruct (Hb p Hp) as [-> _]. unfold mergeable. rewrite HFeq. reflexivity.
  Qed.

  Lemma c05_loop_step l b cur :
    suffix l (rev order) -> suffix b l -> Good st qs0 l cur ->
    Good st qs0 b (fun x => drop_unlisted (mergeable b) (cur x))
    /\ mergeable b = hf_part (fun x => drop_unlisted (mergeable b) (cur x)) ++ rev b.
  Proof.
    intros Hl Hb Hg. split.
    - intros x Hx. rewrite (c05_remove_kept l b cur x Hl Hb Hg Hx). unfold kept.
      destruct (is_hotfix (fst x)); [apply c05_dropbad_suffix | reflexivity].
    - unfold mergeable at 1. f_equal. apply flat_map_ext_in. intros x Hx.
      rewrite (c05_remove_kept l b cur x Hl Hb Hg (proj1 (proj1 (filter_In _ _ _) Hx))), (c05_kept_hf st b qs0 x Hx). reflexivity.
  Qed.

  Lemma c05_loop fuel : (entries qs0 <= fuel)%nat -> forall n l cur,
    suffix l (rev order) -> Good st qs0 l cur -> (length (hf_part cur ++ rev l) <= n)%nat ->
    process_loop n fuel st paths (map (upd cur) qs0) (hf_part cur ++ rev l) = Ok (mergeable (best (okS st qs0) l)).
  Proof.
    intro Hfuel. induction n as [|n IH]; intros l cur Hl Hg Hn; cbn [process_loop].
    all: destruct (c05_one_pass_char fuel st (map (upd cur) qs0) (fun p => mergeable (best (okS st (path_stack p qs0)) l))
                    paths (hf_part cur ++ rev l)) as (m' & -> & Hc & Hle & Hall);
           [exact (fun p Hp => c05_path_prs fuel p l cur Hp Hl Hg Hfuel)|].
    all: destruct (Nat.eqb_spec (length m') (length (hf_part cur ++ rev l))) as [Heq|Hne].
    - f_equal. exact (c05_loop_stop l cur m' Hg Hc Hall Heq).
    - exfalso. lia.
    - f_equal. exact (c05_loop_stop l cur m' Hg Hc Hall Heq).
    - destruct Hc as [->|(p & Hp & ->)]; [destruct (Hne eq_refl)|].
      destruct (c05_best_spec (okS st (path_stack p qs0)) l) as (ab & Hab & _).
      assert (Hb : suffix (best (okS st (path_stack p qs0)) l) l) by (exists ab; exact Hab).
      destruct (c05_loop_step l _ cur Hl Hb Hg) as [Hg' Hm'].
      pose proof (IH _ _ (suffix_trans Hb Hl) Hg') as H. rewrite <- Hm' in H.
      rewrite c05_remove_upd, H, c05_best_path by lia. reflexivity.
  Qed.

  Lemma c05_extract_all : extract_pr_ids qs0 = hf_list qs0 ++ order.
  Proof.
    rewrite (c05_extract qs0 (rev order)), rev_involutive; [reflexivity | exact (wf_hf_nodup _ _ _ Hwf) | exact c05_nd_ro | |].
    - intros p Hp Hh. apply in_rev in Hp. exact (wf_hf_disjoint _ _ _ Hwf p Hh Hp).
    - pose proof (wf_last_dev _ _ _ Hwf) as Hld. destruct (last_dev qs0) as [[g qu]|]; [exact Hld | rewrite Hld; reflexivity].
  Qed.

  Lemma c05_good_init : Good st qs0 (rev order) ints0.
  Proof.
    intros x Hx. pose proof (c05_main_sorted x Hx) as Hs.
    destruct (is_hotfix (fst x)); [exists []; split; reflexivity | exact (Hs eq_refl)].
  Qed.

  Lemma c05_okS_spec l : suffix l (rev order) -> all_green st (main_queues qs0) l = okS st qs0 l.
  Proof.
    intros [a Hro]. unfold all_green, main_queues, okS. rewrite forallb_filter.
    apply forallb_ext_in. intros x Hx. rewrite negb_involutive.
    destruct (is_hotfix (fst x)) eqn:Ex; [reflexivity|]. cbn [orb]. fold (ints0 x).
    rewrite (c05_newest_selected_sel (ints0 x) a l).
    - destruct (sel (ints0 x) l); reflexivity.
    - rewrite <- Hro. exact c05_nd_ro.
    - rewrite <- Hro. exact (c05_main_sorted x Hx Ex).
  Qed.

  Lemma c05_spec_prs_eq : spec_prs st false order qs0 = mergeable (best (okS st qs0) (rev order)).
  Proof.
    unfold spec_prs, mergeable, hf_green. f_equal.
    - apply flat_map_ext_in. intros x Hx. apply c05_hf_select. exact (c05_hf_ids_nodup x Hx).
    - unfold select. rewrite (c05_longest_prefix_rev _ (c05_all_green_rev st (main_queues qs0))). f_equal.
      apply c05_best_ext. exact c05_okS_spec.
  Qed.

  Lemma c05_process_eq :
    process st paths false qs0
    = Ok (spec_prs st false order qs0, remove_unmergeable (spec_prs st false order qs0) qs0).
  Proof.
    unfold process, process_fuel.
    pose proof (c05_loop (entries qs0) (Nat.le_refl _) (length (extract_pr_ids qs0)) (rev order) ints0
                  (suffix_refl _) c05_good_init) as H.
    rewrite c05_upd_id, rev_involutive in H. change (hf_part ints0) with (hf_list qs0) in H.
    rewrite <- c05_extract_all in H. rewrite (H (Nat.le_refl _)), c05_spec_prs_eq. reflexivity.
  Qed.

  (* C05_full, non-forced half *)
  Theorem c05_evaluate_eq :
    evaluate st paths false qs0 = Ok (spec_prs st false order qs0, spec_moves st false order qs0).
  Proof.
    unfold evaluate. rewrite c05_process_eq. rewrite c05_moves_remove by exact (wf_master _ _ _ Hwf).
    reflexivity.
  Qed.

  (* with an admin force merge the whole queue is selected *)
  Theorem c05_evaluate_force :
    evaluate st paths true qs0 = Ok (spec_prs st true order qs0, spec_moves st true order qs0).
  Proof.
    unfold evaluate, process, process_fuel.
    rewrite (c05_extract_all : extract_pr_ids qs0 = spec_prs st true order qs0).
    rewrite c05_moves_remove by exact (wf_master _ _ _ Hwf). reflexivity.
  Qed.

  (* every destination that moves, moves to a commit with a SUCCESSFUL build: it moves to the head of what
     _remove_unmergeable leaves of its queue *)
  Theorem c05_moves_green v e :
    In (v, Some e) (spec_moves st false order qs0) -> green st e = true.
  Proof.
    unfold spec_moves. rewrite c05_spec_prs_eq. intro H. apply in_map_iff in H as (x & E & Hx). injection E as _ E.
    destruct (c05_best_spec (okS st qs0) (rev order)) as (ab & Hab & _ & Hok).
    fold (ints0 x) in E. rewrite <- c05_hd_drop_unlisted in E.
    rewrite (c05_remove_kept (rev order) _ ints0 x (suffix_refl _) (ex_intro _ ab Hab) c05_good_init Hx) in E.
    unfold kept in E. destruct (is_hotfix (fst x)) eqn:Ex; [exact (c05_dropbad_hd st _ e E)|].
    destruct Hok as [Hok|Hok]; [rewrite Hok in E; discriminate E|].
    unfold okS in Hok. rewrite forallb_forall in Hok. specialize (Hok x Hx). rewrite Ex in Hok.
    destruct (sel (ints0 x) _); [discriminate E|]. injection E as ->. exact Hok.
  Qed.

  (* queued_prs is "the queue in order of entry" when the newest development queue is the last
     non-hotfix key of _queues (see c05_queued_prs_misses_one below for what happens otherwise) *)
  Theorem c05_queued_prs :
    find (fun vq : version * queue => (length (fst vq) <? 4)%nat) (rev qs0) = last_dev qs0 ->
    queued_prs qs0 = hf_list qs0 ++ order.
  Proof.
    intro Hlast. unfold queued_prs.
    change (fold_left _ (rev qs0) []) with (hf_fold (rev qs0) []).
    change (find _ (rev qs0)) with (find (fun vq : version * queue => (length (fst vq) <? 4)%nat) (rev qs0)).
    rewrite Hlast, (c05_hf_fold qs0 (wf_hf_nodup _ _ _ Hwf)). f_equal.
    pose proof (wf_last_dev _ _ _ Hwf) as Hld.
    replace (match last_dev qs0 with Some (_, qu) => rev (map q_pr (q_ints qu)) | None => [] end) with order.
    - apply filter_all. intros p Hp. apply negb_true_iff, c05_mem_z_false.
      intro Hin. apply c05_hf_list_In in Hin. exact (wf_hf_disjoint _ _ _ Hwf p Hin Hp).
    - destruct (last_dev qs0) as [[g qu]|]; [|exact Hld]. fold (pr_ids qu). rewrite Hld, rev_involutive. reflexivity.
  Qed.
End C05_WF.

Lemma c05_merge_paths_from_nonempty c : forall ret, ret <> [] -> merge_paths_from c ret <> [].
Proof.
  induction c as [|b t IH]; intros ret H; [exact H|]. cbn [merge_paths_from].
  destruct (c_dev b) as [dev|]; [|exact (IH ret H)]. apply IH.
  destruct ret as [|r0 rt]; [contradiction|].
  destruct (c_hf b), (c_stab b); cbn; discriminate.
Qed.

Lemma c05_nodup_b_sound l : nodup_b l = true -> NoDup l.
Proof.
  induction l as [|x t IH]; intro H; [constructor|]. cbn [nodup_b] in H. apply andb_true_iff in H as [H1 H2].
  constructor; [|exact (IH H2)]. apply negb_true_iff in H1. apply c05_mem_z_false. exact H1.
Qed.

Lemma c05_zlist_eqb_eq a : forall b, zlist_eqb a b = true -> a = b.
Proof.
  induction a as [|x a IH]; intros [|y b] H; cbn [zlist_eqb] in H; try discriminate H; [reflexivity|].
  apply andb_true_iff in H as [H1 H2]. apply Z.eqb_eq in H1. subst y. rewrite (IH b H2). reflexivity.
Qed.

Lemma c05_incl_b_sound a b : incl_b a b = true -> incl a b.
Proof. unfold incl_b. rewrite forallb_forall. intros H x Hx. apply c05_mem_z_In. exact (H x Hx). Qed.

Theorem c05_wf_b_sound paths order qs : wf_b paths order qs = true -> WF paths order qs.
Proof.
  unfold wf_b. intro H.
  apply andb_true_iff in H as [H H13]. apply andb_true_iff in H as [H H12].
  apply andb_true_iff in H as [H H11]. apply andb_true_iff in H as [H H10].
  apply andb_true_iff in H as [H H9]. apply andb_true_iff in H as [H H8].
  apply andb_true_iff in H as [H H7]. apply andb_true_iff in H as [H H6].
  apply andb_true_iff in H as [H H5]. apply andb_true_iff in H as [H H4].
  apply andb_true_iff in H as [H H3]. apply andb_true_iff in H as [H1 H2].
  rewrite forallb_forall in H2, H3, H4, H5, H8, H9, H11, H13.
  constructor.
  - exact (c05_nodup_b_sound _ H1).
  - intros p Hp. apply Z.ltb_lt. exact (H2 p Hp).
  - intros v qu Hin. apply Nat.leb_le. exact (H3 (v, qu) Hin).
  - intros v qu Hin. exact (H4 (v, qu) Hin).
  - intros v qu Hin. exact (c05_zlist_eqb_eq _ _ (H5 (v, qu) Hin)).
  - destruct (last_dev qs) as [[g qu]|]; [exact (c05_zlist_eqb_eq _ _ H6)|].
    destruct order; [reflexivity | discriminate H6].
  - exact (c05_nodup_b_sound _ H7).
  - intros p Hp. apply Z.ltb_lt. exact (H8 p Hp).
  - intros p Hp. apply c05_mem_z_false, negb_true_iff. exact (H9 p Hp).
  - destruct paths; [discriminate H10 | discriminate].
  - intros v qu Hin. specialize (H11 (v, qu) Hin). apply existsb_exists in H11 as (path & Hp & Hv).
    exists path. split; [exact Hp | exact (proj1 (c05_in_path _ _) Hv)].
  - destruct (last_dev qs) as [[g qu]|]; [|exact I]. rewrite forallb_forall in H12.
    intros path Hp. exact (proj1 (c05_in_path _ _) (H12 path Hp)).
  - intros path u qu v qv Hp Hu Hv Iu Iv. specialize (H13 path Hp). rewrite forallb_forall in H13.
    specialize (H13 (u, qu) Hu). rewrite forallb_forall in H13. specialize (H13 (v, qv) Hv). cbn [fst snd] in H13.
    rewrite (proj2 (c05_in_path u path) Iu), (proj2 (c05_in_path v path) Iv) in H13.
    apply orb_true_iff in H13 as [H13|H13]; [left | right]; exact (c05_incl_b_sound _ _ H13).
Qed.

(* The F1 state of DESIGN 1.2: PR1 -> development/4.3, PR2 -> stabilization/5.1.4, PR3 -> development/4.3
   over development/4.3, stabilization/5.1.4, development/5.1, development/10.0; commits 0 (q/w/1/4.3)
   and 3 (q/w/2/5.1.4) FAILED, everything else SUCCESSFUL. *)
Definition c05_v (l : list Z) : version := map Some l.
Definition c05_e (p c : Z) : qint := {| q_pr := p; q_commit := c |}.
Definition c05_f1_queues : queues :=
  [ (c05_v [4; 3],    {| q_master := true; q_ints := [c05_e 3 6; c05_e 1 0] |});
    (c05_v [5; 1; 4], {| q_master := true; q_ints := [c05_e 2 3] |});
    (c05_v [5; 1],    {| q_master := true; q_ints := [c05_e 3 7; c05_e 2 4; c05_e 1 1] |});
    (c05_v [10; 0],   {| q_master := true; q_ints := [c05_e 3 8; c05_e 2 5; c05_e 1 2] |}) ].
Definition c05_f1_paths : list (list version) :=
  get_merge_paths [ {| c_dev := Some (c05_v [4; 3]); c_stab := None; c_hf := None |};
                    {| c_dev := Some (c05_v [5; 1]); c_stab := Some (c05_v [5; 1; 4]); c_hf := None |};
                    {| c_dev := Some (c05_v [10; 0]); c_stab := None; c_hf := None |} ].
Definition c05_f1_status (c : Z) : string := if (c =? 0) || (c =? 3) then "FAILED"%string else "SUCCESSFUL"%string.

Example c05_f1_wf : WF c05_f1_paths [1; 2; 3] c05_f1_queues.
Proof. apply c05_wf_b_sound. vm_compute. reflexivity. Qed.

Example c05_f1_paths_value :
  c05_f1_paths = [ [c05_v [4; 3]; c05_v [5; 1]; c05_v [10; 0]]; [c05_v [5; 1; 4]; c05_v [5; 1]; c05_v [10; 0]] ].
Proof. vm_compute. reflexivity. Qed.

(* the repaired algorithm (the model) selects nothing there, as the specification says *)
Example c05_f1_repaired :
  evaluate c05_f1_status c05_f1_paths false c05_f1_queues
  = Ok ([], [(c05_v [4; 3], None); (c05_v [5; 1; 4], None); (c05_v [5; 1], None); (c05_v [10; 0], None)])
  /\ spec_prs c05_f1_status false [1; 2; 3] c05_f1_queues = [].
Proof. vm_compute. split; reflexivity. Qed.

(* the algorithm before the repair: one pass over the merge paths, "shortest list wins", no second look.
   On the F1 state it selects [1] and development/4.3 would move to commit 0, which FAILED. *)
Definition c05_process_unrepaired (st : Z -> string) (paths : list (list version)) (qs : queues)
  : result (list Z * queues) :=
  match one_pass (entries qs) st qs paths (extract_pr_ids qs) with
  | Ok m => Ok (m, remove_unmergeable m qs)
  | Err e => Err e
  end.

Example c05_f1_unrepaired :
  exists mq, c05_process_unrepaired c05_f1_status c05_f1_paths c05_f1_queues = Ok ([1], mq)
             /\ moves mq = Ok [(c05_v [4; 3], Some (c05_e 1 0)); (c05_v [5; 1; 4], None);
                               (c05_v [5; 1], Some (c05_e 1 1)); (c05_v [10; 0], Some (c05_e 1 2))]
             /\ green c05_f1_status (c05_e 1 0) = false.
Proof. exists (remove_unmergeable [1] c05_f1_queues). vm_compute. repeat split; reflexivity. Qed.

(* a state with a hotfix queue, a selection that is neither empty nor everything *)
Definition c05_hf_queues : queues :=
  [ (c05_v [4; 2; 17; 1], {| q_master := true; q_ints := [c05_e 8 11; c05_e 7 10] |});
    (c05_v [4; 3],    {| q_master := true; q_ints := [c05_e 3 6; c05_e 1 0] |});
    (c05_v [5; 1; 4], {| q_master := true; q_ints := [c05_e 2 3] |});
    (c05_v [5; 1],    {| q_master := true; q_ints := [c05_e 3 7; c05_e 2 4; c05_e 1 1] |});
    (c05_v [10; 0],   {| q_master := true; q_ints := [c05_e 3 8; c05_e 2 5; c05_e 1 2] |}) ].
Definition c05_hf_status (c : Z) : string :=
  if (c =? 11) || (c =? 6) then "INPROGRESS"%string else if c =? 1 then "FAILED"%string else "SUCCESSFUL"%string.

Example c05_hf_wf : WF c05_f1_paths [1; 2; 3] c05_hf_queues.
Proof. apply c05_wf_b_sound. vm_compute. reflexivity. Qed.

Example c05_hf_value :
  evaluate c05_hf_status c05_f1_paths false c05_hf_queues
  = Ok ([7; 1; 2], [(c05_v [4; 2; 17; 1], Some (c05_e 7 10)); (c05_v [4; 3], Some (c05_e 1 0));
                    (c05_v [5; 1; 4], Some (c05_e 2 3)); (c05_v [5; 1], Some (c05_e 2 4));
                    (c05_v [10; 0], Some (c05_e 2 5))])
  /\ evaluate c05_hf_status c05_f1_paths true c05_hf_queues
     = Ok ([7; 8; 1; 2; 3], [(c05_v [4; 2; 17; 1], Some (c05_e 8 11)); (c05_v [4; 3], Some (c05_e 3 6));
                             (c05_v [5; 1; 4], Some (c05_e 2 3)); (c05_v [5; 1], Some (c05_e 3 7));
                             (c05_v [10; 0], Some (c05_e 3 8))])
  /\ failed_prs c05_hf_status c05_hf_queues = [] /\ queued_prs c05_hf_queues = [7; 8; 1; 2; 3].
Proof. vm_compute. repeat split; reflexivity. Qed.

Example c05_empty_example :
  evaluate (fun _ => "FAILED"%string) c05_f1_paths false c05_hf_queues
  = Ok ([], map (fun x : version * queue => (fst x, None)) c05_hf_queues).
Proof. vm_compute. reflexivity. Qed.

(* queued_prs when a hotfix, a stabilization and a development branch share major.minor:
   compare_queues says hotfix = development, hotfix = stabilization, stabilization < development; the
   sort of _add_branch can then leave q/10.0.1 after q/10.0 (observed on the real class), and
   queued_prs, which reads the last non-hotfix key, misses pull request 9. _process is not affected. *)
Definition c05_qp_added : queues :=
  [ (c05_v [10; 0],       {| q_master := true; q_ints := [c05_e 9 3; c05_e 3 2] |});
    (c05_v [10; 0; 0; 1], {| q_master := true; q_ints := [c05_e 7 0] |});
    (c05_v [10; 0; 1],    {| q_master := true; q_ints := [c05_e 3 1] |}) ].
Example c05_queued_prs_misses_one :
  add_versions c05_qp_added [] = Ok c05_qp_added
  /\ queued_prs c05_qp_added = [7; 3]
  /\ extract_pr_ids c05_qp_added = [7; 3; 9].
Proof. vm_compute. repeat split; reflexivity. Qed.

(* two hotfix queues at once (q/4.3.18.1 and q/5.1.3.1) and a development pull request: nothing in WF or
   in the proofs bounds the number of hotfix queues; here the lower hotfix tip FAILED, the higher is green *)
Definition c05_hf2_queues : queues :=
  [ (c05_v [4; 3],        {| q_master := true; q_ints := [c05_e 9 2] |});
    (c05_v [4; 3; 18; 1], {| q_master := true; q_ints := [c05_e 7 0] |});
    (c05_v [5; 1],        {| q_master := true; q_ints := [c05_e 9 3] |});
    (c05_v [5; 1; 3; 1],  {| q_master := true; q_ints := [c05_e 3 1] |}) ].
Definition c05_hf2_paths : list (list version) :=
  get_merge_paths [ {| c_dev := Some (c05_v [4; 3]); c_stab := None; c_hf := None |};
                    {| c_dev := Some (c05_v [5; 1]); c_stab := None; c_hf := None |} ].
Definition c05_hf2_status (c : Z) : string := if c =? 0 then "FAILED"%string else "SUCCESSFUL"%string.

Example c05_hf2_wf : WF c05_hf2_paths [9] c05_hf2_queues.
Proof. apply c05_wf_b_sound. vm_compute. reflexivity. Qed.

Example c05_hf2_value :
  evaluate c05_hf2_status c05_hf2_paths false c05_hf2_queues
  = Ok ([3; 9], [(c05_v [4; 3], Some (c05_e 9 2)); (c05_v [4; 3; 18; 1], None);
                 (c05_v [5; 1], Some (c05_e 9 3)); (c05_v [5; 1; 3; 1], Some (c05_e 3 1))])
  /\ evaluate (fun _ => "SUCCESSFUL"%string) c05_hf2_paths false c05_hf2_queues
     = Ok ([7; 3; 9], [(c05_v [4; 3], Some (c05_e 9 2)); (c05_v [4; 3; 18; 1], Some (c05_e 7 0));
                       (c05_v [5; 1], Some (c05_e 9 3)); (c05_v [5; 1; 3; 1], Some (c05_e 3 1))])
  /\ evaluate (fun _ => "FAILED"%string) c05_hf2_paths true c05_hf2_queues
     = Ok ([7; 3; 9], [(c05_v [4; 3], Some (c05_e 9 2)); (c05_v [4; 3; 18; 1], Some (c05_e 7 0));
                       (c05_v [5; 1], Some (c05_e 9 3)); (c05_v [5; 1; 3; 1], Some (c05_e 3 1))]).
Proof. vm_compute. repeat split; reflexivity. Qed.
