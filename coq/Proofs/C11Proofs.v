(* Proofs for C11: the model of jira_checks (Model/Jira.v) meets the specification (Spec/C11Spec.v) for
   every source branch name, issue table, fixVersions list, target list and settings.

   The two regular expressions are characterised for every input: a version name of the grammar, then what
   "$" allows (vfilter_match_iff, hf_filter_match_iff); what is said of names without line feed, and of a
   trailing one, follows from that.  On a feature branch the gate of the code is one equation
   (jira_checks_flags_feature); spec_when_gate_applies reads the decision tree of the statement in Prop:
   "exactly when" and the soundness of refusals are read off it.

   The gate is studied on a record with the shape [feature_shaped] - all it reads of the source branch - so
   that Model/Names.v enters only through classify_feature_shaped.  [lf_free] is asked of version names only
   because "$" also matches before a final line feed: without it the code keeps names the statement rejects
   (ex_lf_kept).  Properties/C11.v is the only file that imports this one. *)
From Coq Require Import List String Ascii Bool ZArith.
Require Import BertE.Base.Str BertE.Base.Lists BertE.Model.Names BertE.Spec.C18Spec BertE.Proofs.C18Proofs.
Require Import BertE.Generated.Facts_C11 BertE.Model.Jira BertE.Spec.C11Spec.
Import ListNotations.
Open Scope string_scope.

Lemma forallb_false_ex {A} (p : A -> bool) l : forallb p l = false -> exists x, In x l /\ p x = false.
Proof.
  induction l as [|x t IH]; cbn; [discriminate|]. destruct (p x) eqn:E; [|eauto].
  intro H. destruct (IH H) as (y & Hy & Ey). eauto.
Qed.

Lemma mem_str_false x l : mem_str x l = false <-> ~ In x l.
Proof. rewrite <- mem_str_In. symmetry. apply not_true_iff_false. Qed.

(* the option exists, only privileged users may switch it on by a comment, it is not author-only *)
Lemma option_registered : assoc_s option_name option_registry = Some (true, false).
Proof. reflexivity. Qed.

(* off by default, on when listed on the command line *)
Lemma option_wired : assoc_s option_name cmdline_wiring = Some (false, true).
Proof. reflexivity. Qed.

Lemma option_in_bypass_list : mem_str option_name bypass_list = true.
Proof. reflexivity. Qed.

Lemma bypass_value cfg : bypass_jira_check cfg = Some (bypassed cfg).
Proof.
  unfold bypass_jira_check, settings_value, author_bypass_get, bypassed.
  rewrite option_registered, option_wired, option_in_bypass_list.
  destruct (s_bypass_comment cfg), (s_bypass_cmdline cfg), (s_bypass_author cfg); reflexivity.
Qed.

Lemma ticketless_total k : assoc_s (class_name k) ticketless_flags <> None.
Proof. destruct k; vm_compute; discriminate. Qed.

Definition class_of_reason (r : reason) : string :=
  match r with
  | NoTicket => "MissingJiraId" | TicketNotFound => "JiraIssueNotFound"
  | WrongProject => "IncorrectJiraProject" | WrongIssueType => "IssueTypeNotSupported"
  | WrongFixVersions => "IncorrectFixVersion"
  end.

(* (code, (template, kind)) of the exception class, from the live classes *)
Definition message_of (r : reason) : option (Z * (string * string)) :=
  assoc_s (class_of_reason r) exception_table.

Lemma messages_differ r1 r2 : r1 <> r2 ->
  match message_of r1, message_of r2 with
  | Some (c1, (t1, _)), Some (c2, (t2, _)) => ((c1 =? c2)%Z || (t1 =? t2)%string) = false
  | _, _ => False
  end.
Proof. destruct r1, r2; intro H; try contradiction; vm_compute; reflexivity. Qed.

Lemma messages_are_templates r :
  match message_of r with Some (_, (_, k)) => k = "template" | None => False end.
Proof. destruct r; reflexivity. Qed.

Definition lf_free (v : string) : Prop := has_char LF v = false.

Lemma at_end_iff e : at_end e = true <-> e = "" \/ e = String LF "".
Proof. destruct e as [|c [|d t]]; cbn [at_end]; rewrite ?Ascii.eqb_eq; intuition congruence. Qed.

Lemma at_end_stops e : at_end e = true -> stops is_digit e = true.
Proof. intro H. apply at_end_iff in H as [->| ->]; reflexivity. Qed.

Lemma at_end_snoc r : lf_free r -> at_end (r ++ String LF "") = at_end r.
Proof.
  unfold lf_free. destruct r as [|c [|d t]]; cbn [append at_end has_char]; intro H; try reflexivity.
  apply orb_false_iff in H as [H _]. rewrite H. reflexivity.
Qed.

(* a pattern that ends with "$", on a name without line feed: nothing follows what the pattern took *)
Lemma dollar_lf_free (P : string -> Prop) s : lf_free s ->
  (exists v e, P v /\ at_end e = true /\ s = v ++ e) <-> P s.
Proof.
  intro Hs. split.
  - intros (v & e & Hv & He & ->). apply has_char_app_r in Hs.
    apply at_end_iff in He as [->| ->]; [rewrite sapp_nil_r; exact Hv | discriminate Hs].
  - intro H. exists s, "". rewrite sapp_nil_r. auto.
Qed.

Lemma scan_number_iff s r : scan_number s = Some r <->
  exists d, number d /\ s = d ++ r /\ stops is_digit r = true.
Proof.
  unfold scan_number, number, is_num. split.
  - destruct (span is_digit s) as [d r'] eqn:E. apply span_spec in E as (-> & Hall & Hst).
    destruct (is_empty d) eqn:Hd; intro H; [discriminate H|]. injection H as <-.
    exists d. rewrite Hd, Hall. auto.
  - intros (d & Hd & -> & Hr). apply andb_true_iff in Hd as [Hne Hall].
    rewrite (span_app is_digit d r Hall Hr). apply negb_true_iff in Hne. rewrite Hne. reflexivity.
Qed.

Lemma scan_number_app d r : number d -> stops is_digit r = true -> scan_number (d ++ r) = Some r.
Proof. intros Hd Hr. apply scan_number_iff. exists d. auto. Qed.

Lemma scan_lit_iff c s r : scan_lit c s = Some r <-> s = String c r.
Proof.
  split; [|intros ->; cbn [scan_lit]; rewrite Ascii.eqb_refl; reflexivity].
  destruct s as [|d t]; cbn [scan_lit]; [discriminate|].
  destruct (Ascii.eqb_spec d c) as [->|]; [|discriminate]. intro H. injection H as <-. reflexivity.
Qed.

Lemma scan_xyz_iff s r : scan_xyz s = Some r <->
  exists x y z, number x /\ number y /\ number z /\ s = x ++ "." ++ y ++ "." ++ z ++ r /\ stops is_digit r = true.
Proof.
  unfold scan_xyz. split.
  - unfold bind. intro H.
    destruct (scan_number s) as [r1|] eqn:E1; [|discriminate H].
    destruct (scan_lit "." r1) as [r2|] eqn:E2; [|discriminate H].
    destruct (scan_number r2) as [r3|] eqn:E3; [|discriminate H].
    destruct (scan_lit "." r3) as [r4|] eqn:E4; [|discriminate H].
    apply scan_number_iff in E1 as (x & Hx & -> & _). apply scan_lit_iff in E2 as ->.
    apply scan_number_iff in E3 as (y & Hy & -> & _). apply scan_lit_iff in E4 as ->.
    apply scan_number_iff in H as (z & Hz & -> & Hst). exists x, y, z. auto.
  - intros (x & y & z & Hx & Hy & Hz & -> & Hr).
    rewrite (scan_number_app x) by (assumption || reflexivity). cbn [bind scan_lit append Ascii.eqb Bool.eqb].
    rewrite (scan_number_app y) by (assumption || reflexivity). cbn [bind scan_lit append Ascii.eqb Bool.eqb].
    apply scan_number_app; assumption.
Qed.

Lemma scan_xyz_app x y z r : number x -> number y -> number z -> stops is_digit r = true ->
  scan_xyz (x ++ "." ++ y ++ "." ++ z ++ r) = Some r.
Proof. intros. apply scan_xyz_iff. exists x, y, z. auto. Qed.

Theorem vfilter_match_iff s :
  vfilter_match s = true <-> exists v e, unsuffixed v /\ at_end e = true /\ s = v ++ e.
Proof.
  unfold vfilter_match. split.
  - destruct (scan_xyz s) as [r|] eqn:E; [|discriminate].
    apply scan_xyz_iff in E as (x & y & z & Hx & Hy & Hz & -> & _). intro H. apply orb_true_iff in H as [H|H].
    + destruct (strip_prefix ".0" r) as [e|] eqn:S; [|discriminate H]. apply strip_prefix_some in S as ->.
      exists (x ++ "." ++ y ++ "." ++ z ++ ".0"), e. rewrite !sapp_assoc. repeat split; [|exact H].
      exists [x; y; z; "0"]. split; [exact (V4 x y z "0" Hx Hy Hz eq_refl) | right; split; reflexivity].
    + exists (x ++ "." ++ y ++ "." ++ z), r. rewrite !sapp_assoc. repeat split; [|exact H].
      exists [x; y; z]. split; [exact (V3 x y z Hx Hy Hz) | left; reflexivity].
  - intros (v & e & (cs & Hv & Hl) & He & ->). pose proof (at_end_stops e He) as Hs.
    (* of the four forms of a version, three and four components remain *)
    destruct Hv as [x Hx|x y Hx Hy|x y z Hx Hy Hz|x y z n Hx Hy Hz Hn]; cbn [List.length nth_error] in Hl.
    1, 2: destruct Hl as [Hl|[Hl _]]; discriminate Hl.
    + rewrite !sapp_assoc, scan_xyz_app, He by assumption. apply orb_true_r.
    + destruct Hl as [Hl|[_ Hn0]]; [discriminate Hl|]. injection Hn0 as ->.
      rewrite !sapp_assoc, scan_xyz_app by (assumption || reflexivity).
      cbn [append strip_prefix Ascii.eqb Bool.eqb]. rewrite He. reflexivity.
Qed.

Theorem hf_filter_match_iff s :
  hf_filter_match s = true <-> exists v e, hotfix_version v /\ at_end e = true /\ s = v ++ e.
Proof.
  unfold hf_filter_match. split.
  - unfold bind. destruct (scan_xyz s) as [r|] eqn:E; [|discriminate].
    destruct (scan_lit "." r) as [r2|] eqn:E2; [|discriminate].
    destruct (scan_number r2) as [e|] eqn:E3; [|discriminate].
    apply scan_xyz_iff in E as (x & y & z & Hx & Hy & Hz & -> & _). apply scan_lit_iff in E2 as ->.
    apply scan_number_iff in E3 as (n & Hn & -> & _). intro He.
    exists (x ++ "." ++ y ++ "." ++ z ++ "." ++ n), e. rewrite !sapp_assoc. repeat split; [|exact He].
    exists [x; y; z; n]. split; [exact (V4 x y z n Hx Hy Hz Hn) | reflexivity].
  - intros (v & e & (cs & Hv & Hl) & He & ->).
    destruct Hv as [x Hx|x y Hx Hy|x y z Hx Hy Hz|x y z n Hx Hy Hz Hn]; try discriminate Hl.
    rewrite !sapp_assoc, scan_xyz_app by (assumption || reflexivity).
    cbn [bind scan_lit append Ascii.eqb Bool.eqb]. rewrite (scan_number_app n e Hn (at_end_stops e He)). exact He.
Qed.

Lemma vfilter_unsuffixed s : lf_free s -> (vfilter_match s = true <-> unsuffixed s).
Proof. intro H. rewrite vfilter_match_iff. apply dollar_lf_free, H. Qed.

Lemma hf_filter_hotfix s : lf_free s -> (hf_filter_match s = true <-> hotfix_version s).
Proof. intro H. rewrite hf_filter_match_iff. apply dollar_lf_free, H. Qed.

Lemma vfilter_snoc_iff s : vfilter_match (s ++ String LF "") = true <-> unsuffixed s.
Proof.
  rewrite vfilter_match_iff. split.
  - intros (v & e & Hv & He & E). apply at_end_iff in He as [->| ->].
    + destruct Hv as (cs & Hv & _). apply version_no_lf in Hv.
      rewrite sapp_nil_r in E. rewrite <- E in Hv. apply has_char_app_r in Hv. discriminate Hv.
    + apply (f_equal chomp) in E. rewrite !chomp_app_lf in E. subst v. exact Hv.
  - intro H. exists s, (String LF ""). auto.
Qed.

(* the recognisers of the specification are exact: both test the components that spec_version finds *)
Lemma spec_version_test_iff (f : list string -> bool) (P : list string -> Prop) v :
  (forall cs, f cs = true <-> P cs) ->
  match spec_version v with Some cs => f cs | None => false end = true <-> exists cs, version v cs /\ P cs.
Proof.
  intro Hf. destruct (spec_version v) as [cs|] eqn:E.
  - rewrite Hf. split; [intro H; exists cs; split; [apply spec_version_iff, E | exact H]|].
    intros (cs' & Hv & H). apply spec_version_iff in Hv. rewrite E in Hv. injection Hv as ->. exact H.
  - split; [discriminate|]. intros (cs & Hv & _). apply spec_version_iff in Hv. rewrite E in Hv. discriminate Hv.
Qed.

Lemma unsuffixedb_iff v : unsuffixedb v = true <-> unsuffixed v.
Proof.
  apply spec_version_test_iff.
  intros [|a [|b [|c [|d [|e r]]]]]; cbn [List.length nth_error]; rewrite ?String.eqb_eq; intuition congruence.
Qed.

Lemma hotfix_versionb_iff v : hotfix_versionb v = true <-> hotfix_version v.
Proof.
  apply spec_version_test_iff.
  intros [|a [|b [|c [|d [|e r]]]]]; cbn [List.length]; intuition congruence.
Qed.

Lemma vfilter_eq s : lf_free s -> vfilter_match s = unsuffixedb s.
Proof. intro H. apply eq_true_iff_eq. rewrite (vfilter_unsuffixed s H), unsuffixedb_iff. reflexivity. Qed.

Lemma hf_filter_eq s : lf_free s -> hf_filter_match s = hotfix_versionb s.
Proof. intro H. apply eq_true_iff_eq. rewrite (hf_filter_hotfix s H), hotfix_versionb_iff. reflexivity. Qed.

Lemma In_to_set x l : In x (to_set l) <-> In x l.
Proof.
  induction l as [|y t IH]; [tauto|]. cbn [to_set]. destruct (mem_str y t) eqn:E.
  - rewrite IH. split; [intro H; right; exact H|]. intros [<-|H]; [apply mem_str_In; exact E | exact H].
  - cbn [In]. rewrite IH. tauto.
Qed.

Lemma mem_to_set x l : mem_str x (to_set l) = mem_str x l.
Proof. apply eq_true_iff_eq. rewrite !mem_str_In. apply In_to_set. Qed.

Lemma set_eqb_iff a b : set_eqb a b = true <-> (forall x, In x a <-> In x b).
Proof.
  unfold set_eqb. rewrite andb_true_iff, !forallb_forall. split.
  - intros [H1 H2] x. split; intro H; apply mem_str_In; [apply H1 | apply H2]; exact H.
  - intro H. split; intros x Hx; apply mem_str_In; apply H; exact Hx.
Qed.

Lemma set_eqb_ext a a' b b' :
  (forall x, In x a <-> In x a') -> (forall x, In x b <-> In x b') -> set_eqb a b = set_eqb a' b'.
Proof.
  intros Ha Hb. apply eq_true_iff_eq. rewrite !set_eqb_iff.
  split; intros H x; [rewrite <- Ha, <- Hb | rewrite Ha, Hb]; apply H.
Qed.

Lemma one_name_repeated_iff w rest v :
  (forall x, In x (w :: rest) <-> x = v) <-> w = v /\ forallb (String.eqb v) rest = true.
Proof.
  rewrite forallb_forall. split.
  - intro H. split; [apply H; left; reflexivity|]. intros y Hy. apply String.eqb_eq. symmetry. apply H. right; exact Hy.
  - intros [-> F] x. split; [|intros ->; left; reflexivity].
    intros [<-|Hx]; [reflexivity | symmetry; apply String.eqb_eq, F, Hx].
Qed.

Lemma to_set_all_eq v rest : forallb (String.eqb v) rest = true -> to_set (v :: rest) = [v].
Proof.
  induction rest as [|y t IH]; [reflexivity|]. cbn [forallb]. intro H.
  apply andb_true_iff in H as [Hy Ht]. apply String.eqb_eq in Hy. subst y.
  cbn [to_set mem_str existsb]. rewrite String.eqb_refl. exact (IH Ht).
Qed.

Lemma hf_target_eq tv : Forall lf_free tv -> hf_target (to_set tv) = hotfix_targetb tv.
Proof.
  intro Hlf. destruct tv as [|v rest]; [reflexivity|]. unfold hotfix_targetb.
  destruct (forallb (String.eqb v) rest) eqn:F.
  - rewrite (to_set_all_eq v rest F). cbn [hf_target andb].
    rewrite hf_filter_eq by (inversion Hlf; assumption). reflexivity.
  - (* a set of one element means that all the names are equal *)
    cbn [andb]. destruct (to_set (v :: rest)) as [|w [|w2 t2]] eqn:E; try reflexivity.
    assert (H : forall x, In x (v :: rest) <-> x = w) by (intro x; rewrite <- In_to_set, E; cbn; intuition).
    apply one_name_repeated_iff in H as [-> H]. rewrite H in F. discriminate F.
Qed.

Lemma hotfix_targetb_iff expected hv : hotfix_targetb expected = Some hv <-> hotfix_target expected hv.
Proof.
  unfold hotfix_target. rewrite <- hotfix_versionb_iff. destruct expected as [|w rest].
  - split; [discriminate | intros [_ H]; destruct (proj2 (H hv) eq_refl)].
  - rewrite one_name_repeated_iff. cbn [hotfix_targetb]. split.
    + destruct (forallb (String.eqb w) rest && hotfix_versionb w) eqn:E; [|discriminate].
      intro H. injection H as <-. apply andb_true_iff in E. tauto.
    + intros (V & -> & F). rewrite F, V. reflexivity.
Qed.

Lemma hotfix_versionb_nonempty v : hotfix_versionb v = true -> is_empty v = false.
Proof. destruct v; [vm_compute; discriminate | reflexivity]. Qed.

(* check_fix_versions raises exactly when the versions do not fit *)
Lemma fix_versions_wrong_eq fix_versions tv : Forall lf_free fix_versions -> Forall lf_free tv ->
  fix_versions_wrong fix_versions tv = negb (versions_fitb fix_versions tv).
Proof.
  intros Hf Ht. unfold fix_versions_wrong, versions_fitb. rewrite (hf_target_eq tv Ht).
  destruct (hotfix_targetb tv) as [hv|] eqn:E.
  - (* "if hf_target:" asks whether the string is empty; a hotfix version never is *)
    apply hotfix_targetb_iff in E as [V _]. apply hotfix_versionb_iff, hotfix_versionb_nonempty in V.
    rewrite V, mem_to_set. reflexivity.
  - f_equal. rewrite (filter_ext_in vfilter_match unsuffixedb).
    + apply set_eqb_ext; intro x; [rewrite !filter_In, In_to_set; reflexivity | apply In_to_set].
    + intros x Hx. rewrite Forall_forall in Hf. exact (vfilter_eq x (Hf x (proj1 (In_to_set x _) Hx))).
Qed.

Lemma versions_fitb_iff fix_versions expected :
  versions_fitb fix_versions expected = true <-> versions_fit fix_versions expected.
Proof.
  unfold versions_fitb, versions_fit. setoid_rewrite <- hotfix_targetb_iff.
  destruct (hotfix_targetb expected) as [hv|].
  - rewrite mem_str_In. split; [intro H; left; exists hv; auto|].
    intros [(hv' & Ht & Hin)|[Hno _]]; [injection Ht as <-; exact Hin | destruct (Hno hv eq_refl)].
  - change (subset (filter unsuffixedb fix_versions) expected && subset expected (filter unsuffixedb fix_versions))
      with (set_eqb (filter unsuffixedb fix_versions) expected).
    rewrite set_eqb_iff. split.
    + intro H. right. split; [discriminate|]. intro x. rewrite <- H, filter_In, unsuffixedb_iff. tauto.
    + intros [(hv & Ht & _)|[_ H]]; [discriminate Ht|]. intro x. rewrite H, filter_In, unsuffixedb_iff. tauto.
Qed.

(* what the gate reads from a feature branch: a prefix, and a ticket (non-empty key with its project) or none *)
Definition feature_shaped (a : branch_info) : Prop :=
  bi_class a = FeatureBranch /\ (exists p, bi_prefix a = Some p) /\
  ((bi_jira_issue_key a = None /\ bi_jira_project a = None) \/
   (exists key proj, bi_jira_issue_key a = Some key /\ bi_jira_project a = Some proj /\ is_empty key = false)).

Lemma option_map_class {A} (f : A -> branch_info) k x a :
  (forall y, bi_class (f y) = k) -> option_map f x = Some a -> bi_class a = k.
Proof. intros Hf H. destruct x; [injection H as <-; apply Hf | discriminate H]. Qed.

Lemma scan_versioned_class k h lo hi s a : scan_versioned k h lo hi s = Some a -> bi_class a = k.
Proof.
  unfold scan_versioned. destruct (strip_prefix h s); [|discriminate]. apply option_map_class. reflexivity.
Qed.

Lemma scan_labelled_class k h s a : scan_labelled k h s = Some a -> bi_class a = k.
Proof.
  unfold scan_labelled. destruct (strip_prefix h s); [|discriminate]. apply option_map_class. reflexivity.
Qed.

Lemma scan_integration_tail_class k pr r a : scan_integration_tail k pr r = Some a -> bi_class a = k.
Proof.
  unfold scan_integration_tail. destruct (split_first "/" r) as [[v rest]|]; [|discriminate].
  destruct (parse_version 1 4 v), (scan_feature rest); try discriminate. intro H. injection H as <-. reflexivity.
Qed.

Lemma match_class_class k s a : match_class k s = Some a -> bi_class a = k.
Proof.
  destruct k; cbn [match_class]; try apply scan_versioned_class; try apply scan_labelled_class.
  - destruct (strip_prefix "q/w/" s) as [r|]; [|discriminate].
    destruct (split_first "/" r) as [[p rest]|]; [|discriminate].
    destruct (is_num p); [apply scan_integration_tail_class | discriminate].
  - apply option_map_class. reflexivity.
  - destruct (strip_prefix "w/" s); [apply scan_integration_tail_class | discriminate].
Qed.

Lemma classify_feature_shaped s a : classify s = Some a -> bi_class a = FeatureBranch -> feature_shaped a.
Proof.
  intros Hc Hk. unfold classify in Hc. apply first_some_in in Hc as (k & _ & Hm).
  pose proof (match_class_class k s a Hm) as Hk'. rewrite Hk in Hk'. subst k.
  apply match_class_inv in Hm as (h & rest & _ & _ & T). cbn [tail_form] in T.
  destruct (scan_line rest) as [l|]; [|discriminate T]. injection T as <-.
  split; [reflexivity|]. split; [exists h; reflexivity|]. cbn. rewrite scan_ticket_eq.
  destruct (spec_ticket l) as [[key proj]|] eqn:E; [|left; split; reflexivity].
  right. exists (upper key), (upper proj). repeat split. rewrite upper_is_empty.
  apply spec_ticket_sound in E as (num & _ & _ & [Hp _] & _ & _ & ->). destruct proj; [contradiction | reflexivity].
Qed.

(* what a caller observes: the exception classes are the five messages of the statement; a re-raised
   JIRAError and an AttributeError are outside it *)
Definition verdict_of (o : outcome) : option verdict :=
  match o with
  | Ok => Some Admit
  | MissingJiraId _ => Some (Refuse NoTicket)
  | JiraIssueNotFound => Some (Refuse TicketNotFound)
  | IncorrectJiraProject => Some (Refuse WrongProject)
  | IssueTypeNotSupported => Some (Refuse WrongIssueType)
  | IncorrectFixVersion => Some (Refuse WrongFixVersions)
  | JIRAErrorReraised | AttributeErr => None
  end.

(* a Jira server that holds the tickets and answers 404 for anything else *)
Definition server (tickets : list (string * issue)) : list (string * answer) :=
  map (fun t => (fst t, Found (snd t))) tickets.

Definition tickets_lf_free (tickets : list (string * issue)) : Prop :=
  Forall (fun t => Forall lf_free (iss_fix_versions (snd t))) tickets.

Lemma lookup_server key tickets :
  lookup key (server tickets) =
  match find_ticket key tickets with Some i => Found i | None => Failure 404 end.
Proof.
  induction tickets as [|[k i] t IH]; [reflexivity|]. cbn [server map lookup find_ticket fst snd].
  destruct (k =? key)%string; [reflexivity | exact IH].
Qed.

Lemma find_ticket_lf_free key tickets i :
  tickets_lf_free tickets -> find_ticket key tickets = Some i -> Forall lf_free (iss_fix_versions i).
Proof.
  induction 1 as [|[k j] t Hj _ IH]; cbn [find_ticket]; [discriminate|].
  destruct (k =? key)%string; [intro H; injection H as <-; exact Hj | exact IH].
Qed.

Lemma find_ticket_none_or key tickets : {i | find_ticket key tickets = Some i} + {find_ticket key tickets = None}.
Proof. destruct (find_ticket key tickets) as [i|]; [left; exists i; reflexivity | right; reflexivity]. Qed.

Lemma configured_eq cfg : jira_configured cfg = configured cfg.
Proof.
  unfold jira_configured, configured. rewrite !is_empty_eqb_nil.
  destruct (s_jira_keys cfg); reflexivity.
Qed.

Lemma feature_groups :
  class_has_group FeatureBranch "prefix" = true /\ class_has_group FeatureBranch "jira_issue_key" = true /\
  class_has_group FeatureBranch "jira_project" = true.
Proof. split; [|split]; reflexivity. Qed.

Lemma jira_checks_flags_feature cfg a flags expected db : feature_shaped a ->
  jira_checks_flags cfg a flags expected db =
  if gate_applies cfg a then
    match named_ticket a with
    | Some (key, _) => with_reference cfg a key expected db
    | None => no_reference flags
    end
  else Ok.
Proof.
  intros (Hc & (p & Hp) & Hk). destruct feature_groups as (G1 & G2 & _).
  unfold jira_checks_flags, gate_applies, prefix_bypassed, attr, opt_in, named_ticket.
  rewrite bypass_value, configured_eq, Hc, G1, G2, Hp.
  destruct (bypassed cfg); [reflexivity|]. destruct (mem_str p (s_bypass_prefixes cfg)); [reflexivity|].
  destruct (configured cfg); [|reflexivity]. cbn [negb andb].
  destruct Hk as [[-> _]|(key & proj & -> & -> & ->)]; reflexivity.
Qed.

Lemma forallb_first_refusing flags i :
  forallb (fun b => b) flags = match first_refusing flags i with Some _ => false | None => true end.
Proof.
  revert i. induction flags as [|[|] t IH]; intro i; cbn [first_refusing forallb andb]; [reflexivity | apply IH | reflexivity].
Qed.

Lemma no_reference_spec flags :
  verdict_of (no_reference flags) = Some (if forallb (fun b => b) flags then Admit else Refuse NoTicket).
Proof.
  unfold no_reference. rewrite (forallb_first_refusing flags 0). destruct (first_refusing flags 0); reflexivity.
Qed.

Lemma type_configured_eq cfg i :
  type_configured cfg i =
  match s_prefixes cfg with [] => true | _ => false end || mem_str (iss_type i) (map fst (s_prefixes cfg)).
Proof.
  unfold type_configured, mem_str. rewrite existsb_map. destruct (s_prefixes cfg) as [|p t]; [reflexivity|].
  apply existsb_ext_in. intros q _. apply String.eqb_sym.
Qed.

Lemma type_configured_iff cfg i :
  type_configured cfg i = true <-> (s_prefixes cfg = [] \/ In (iss_type i) (map fst (s_prefixes cfg))).
Proof.
  rewrite type_configured_eq, orb_true_iff, mem_str_In. destruct (s_prefixes cfg) as [|p t].
  - split; left; reflexivity.
  - split; (intros [H|H]; [discriminate H | right; exact H]).
Qed.

Theorem gate_meets_spec cfg a flags expected tickets :
  feature_shaped a -> Forall lf_free expected -> tickets_lf_free tickets ->
  verdict_of (jira_checks_flags cfg a flags expected (server tickets)) =
  Some (spec cfg a flags expected tickets).
Proof.
  intros Hf Hexp Htk. rewrite (jira_checks_flags_feature cfg a flags expected _ Hf). unfold spec.
  destruct (gate_applies cfg a); [|reflexivity]. cbn [negb].
  destruct (named_ticket a) as [[key proj]|] eqn:N; [|apply no_reference_spec].
  assert (Hpj : bi_jira_project a = Some proj)
    by (unfold named_ticket in N; destruct (bi_jira_issue_key a), (bi_jira_project a); congruence).
  destruct Hf as (Hc & _). destruct feature_groups as (_ & _ & G3).
  unfold with_reference, attr. rewrite lookup_server, Hc, G3, Hpj.
  destruct (find_ticket key tickets) as [i|] eqn:F; [|reflexivity].
  cbn [opt_in]. unfold project_configured.
  destruct (mem_str proj (s_jira_keys cfg)); [|reflexivity]. cbn [negb].
  rewrite <- negb_orb, <- type_configured_eq. destruct (type_configured cfg i); [|reflexivity]. cbn [negb].
  destruct (s_disable_version_checks cfg); [reflexivity|]. cbn [negb andb].
  rewrite fix_versions_wrong_eq.
  - destruct (versions_fitb (iss_fix_versions i) expected); reflexivity.
  - exact (find_ticket_lf_free key tickets i Htk F).
  - exact Hexp.
Qed.

(* a source branch whose class has no prefix (anything but feature / w / q/w names) makes the gate crash
   unless it is bypassed: _handle_pull_request never gets there with such a source *)
Lemma gate_needs_prefix cfg a flags expected db :
  class_has_group (bi_class a) "prefix" = false -> bypassed cfg = false ->
  jira_checks_flags cfg a flags expected db = AttributeErr.
Proof.
  intros Hg Hb. unfold jira_checks_flags, attr. rewrite bypass_value, Hb, Hg. reflexivity.
Qed.

(* no branch class accepts ticketless pull requests: Facts_C11.ticketless_flags, the gate's own copy, read
   from /repo on every run, of the flag that C18 reads in Facts_C18 *)
Lemma no_class_accepts_ticketless k : ticketless k = false.
Proof. destruct k; reflexivity. Qed.

Lemma gate_applies_true cfg a :
  gate_applies cfg a = true <-> bypassed cfg = false /\ prefix_bypassed cfg a = false /\ configured cfg = true.
Proof. unfold gate_applies. rewrite !andb_true_iff, !negb_true_iff. tauto. Qed.

Lemma gate_applies_false cfg a :
  gate_applies cfg a = false <-> bypassed cfg = true \/ prefix_bypassed cfg a = true \/ configured cfg = false.
Proof. unfold gate_applies. rewrite !andb_false_iff, !negb_false_iff. tauto. Qed.

Section Statement.
Variables (cfg : settings) (a : branch_info) (accepts : list bool) (expected : list string)
          (tickets : list (string * issue)).

Definition failed_requirement (r : reason) : Prop :=
  match r with
  | NoTicket => named_ticket a = None /\ exists b, In b accepts /\ b = false
  | TicketNotFound => exists key project, named_ticket a = Some (key, project) /\ find_ticket key tickets = None
  | WrongProject => exists key project, named_ticket a = Some (key, project) /\ ~ In project (s_jira_keys cfg)
  | WrongIssueType => exists key project i, named_ticket a = Some (key, project) /\
                        find_ticket key tickets = Some i /\ s_prefixes cfg <> [] /\
                        ~ In (iss_type i) (map fst (s_prefixes cfg))
  | WrongFixVersions => exists key project i, named_ticket a = Some (key, project) /\
                        find_ticket key tickets = Some i /\ s_disable_version_checks cfg = false /\
                        ~ versions_fit (iss_fix_versions i) expected
  end.

Lemma spec_gate_off : gate_applies cfg a = false -> spec cfg a accepts expected tickets = Admit.
Proof. intro G. unfold spec. rewrite G. reflexivity. Qed.

Lemma spec_when_gate_applies : gate_applies cfg a = true ->
  match spec cfg a accepts expected tickets with
  | Admit => fits cfg a accepts expected tickets
  | Refuse r => failed_requirement r
  end.
Proof.
  intro G. unfold spec, fits. rewrite G. cbn [negb]. destruct (named_ticket a) as [[key project]|] eqn:N.
  - destruct (find_ticket key tickets) as [i|] eqn:F; [|exists key, project; auto].
    unfold project_configured. destruct (mem_str project (s_jira_keys cfg)) eqn:P; cbn [negb].
    2: { exists key, project. split; [exact N|]. apply mem_str_false, P. }
    apply mem_str_In in P. destruct (type_configured cfg i) eqn:T; cbn [negb].
    2: { exists key, project, i. apply not_true_iff_false in T. rewrite type_configured_iff in T. tauto. }
    apply type_configured_iff in T.
    destruct (negb (s_disable_version_checks cfg) && negb (versions_fitb (iss_fix_versions i) expected)) eqn:V.
    + apply andb_true_iff in V as [D V]. apply negb_true_iff in D, V.
      exists key, project, i. rewrite <- versions_fitb_iff, V. repeat split; try assumption. discriminate.
    + apply andb_false_iff in V. rewrite !negb_false_iff, versions_fitb_iff in V. exists i. auto.
  - destruct (forallb (fun b => b) accepts) eqn:A.
    + exact (proj1 (forallb_forall _ _) A).
    + split; [exact N | exact (forallb_false_ex _ _ A)].
Qed.

Lemma failed_not_fits r : failed_requirement r -> ~ fits cfg a accepts expected tickets.
Proof.
  unfold fits. destruct r; cbn [failed_requirement].
  - intros (-> & b & Hb & ->) H. discriminate (H false Hb).
  - intros (key & project & -> & F) (i & Fi & _). rewrite F in Fi. discriminate Fi.
  - intros (key & project & -> & Hp) (i & _ & Hin & _). exact (Hp Hin).
  - intros (key & project & i & -> & F & Hne & Hn) (j & Fj & _ & Ht & _).
    rewrite F in Fj. injection Fj as <-. tauto.
  - intros (key & project & i & -> & F & D & Hn) (j & Fj & _ & _ & Hv).
    rewrite F in Fj. injection Fj as <-. rewrite D in Hv. destruct Hv as [Hv|Hv]; [discriminate Hv | exact (Hn Hv)].
Qed.

(* "exactly when" *)
Theorem spec_admit_iff : spec cfg a accepts expected tickets = Admit <-> admitted cfg a accepts expected tickets.
Proof.
  assert (R : admitted cfg a accepts expected tickets <->
              gate_applies cfg a = false \/ fits cfg a accepts expected tickets)
    by (unfold admitted; rewrite gate_applies_false; tauto).
  rewrite R. destruct (gate_applies cfg a) eqn:G.
  - pose proof (spec_when_gate_applies G) as T. destruct (spec cfg a accepts expected tickets) as [|r].
    + split; [right; exact T | reflexivity].
    + split; [discriminate | intros [H|H]; [discriminate H | destruct (failed_not_fits r T H)]].
  - rewrite (spec_gate_off G). split; [left; reflexivity | reflexivity].
Qed.

End Statement.

(* expected versions that are one name which is neither x.y.z[.0] nor x.y.z.n can never be matched:
   this is what happens for a hotfix branch without any tag of its patch (C09: x.y.z.-1) *)
Lemma odd_expected_never_fits fix_versions v :
  ~ unsuffixed v -> ~ hotfix_version v -> ~ versions_fit fix_versions [v].
Proof.
  intros Hu Hh [(hv & [Hhv Hall] & _)|[_ Hall]].
  - assert (v = hv) by (apply Hall; left; reflexivity). subst hv. exact (Hh Hhv).
  - destruct (proj1 (Hall v) (or_introl eq_refl)) as [_ H]. exact (Hu H).
Qed.

Definition ex_cfg : settings :=
  {| s_bypass_comment := false; s_bypass_cmdline := false; s_bypass_author := false;
     s_bypass_prefixes := ["dependabot"];
     s_jira_keys := ["PROJ"; "OPS_2"]; s_jira_email := "bot@example.org"; s_jira_account_url := "https://jira";
     s_prefixes := [("Bug", "bugfix"); ("Story", "feature")];
     s_disable_version_checks := false |}.

Definition ex_tickets : list (string * issue) :=
  [("PROJ-12", mkIssue "PROJ-12" "Bug" ["4.0.1"; "5.1.0_hf7"; "10.0.0"; "4.0.1.3"]);
   ("PROJ-13", mkIssue "PROJ-13" "Epic" ["4.0.1"; "10.0.0"]);
   ("PROJ-14", mkIssue "PROJ-14" "Story" ["4.0.1"; "4.0.1.0"; "10.0.0"]);
   ("PROJ-15", mkIssue "PROJ-15" "Bug" ["4.0.1.2"; "whatever"]);
   ("OTHER-1", mkIssue "OTHER-1" "Bug" ["4.0.1"; "10.0.0"])].

Definition ex_devs : list bclass := [DevelopmentBranch; DevelopmentBranch].

Definition ex_run (src : string) (targets : list bclass) (expected : list string) : option outcome :=
  jira_checks_name ex_cfg src targets expected (server ex_tickets).

(* the hypotheses of the main theorem hold for these inputs *)
Example ex_hypotheses :
  (exists a, classify "bugfix/proj-12-fix" = Some a /\ bi_class a = FeatureBranch /\
             bi_jira_issue_key a = Some "PROJ-12" /\ bi_jira_project a = Some "PROJ") /\
  Forall lf_free ["4.0.1"; "10.0.0"] /\ tickets_lf_free ex_tickets.
Proof.
  split; [|split; repeat constructor].
  assert (E : option_map (fun a => (bi_class a, bi_jira_issue_key a, bi_jira_project a))
                         (classify "bugfix/proj-12-fix") = Some (FeatureBranch, Some "PROJ-12", Some "PROJ"))
    by (vm_compute; reflexivity).
  destruct (classify "bugfix/proj-12-fix") as [a|]; [|discriminate E].
  injection E as E1 E2 E3. exists a. auto.
Qed.

(* lower-case key, suffixed and x.y.z.n versions ignored: admitted *)
Example ex_admit : ex_run "bugfix/proj-12-fix" ex_devs ["4.0.1"; "10.0.0"] = Some Ok.
Proof. vm_compute. reflexivity. Qed.

Example ex_missing_id : ex_run "bugfix/no-ticket-here" ex_devs ["4.0.1"; "10.0.0"] = Some (MissingJiraId 0).
Proof. vm_compute. reflexivity. Qed.

Example ex_not_found : ex_run "bugfix/PROJ-99-x" ex_devs ["4.0.1"; "10.0.0"] = Some JiraIssueNotFound.
Proof. vm_compute. reflexivity. Qed.

Example ex_wrong_project : ex_run "bugfix/OTHER-1-x" ex_devs ["4.0.1"; "10.0.0"] = Some IncorrectJiraProject.
Proof. vm_compute. reflexivity. Qed.

Example ex_wrong_type : ex_run "feature/PROJ-13" ex_devs ["4.0.1"; "10.0.0"] = Some IssueTypeNotSupported.
Proof. vm_compute. reflexivity. Qed.

(* x.y.z.0 is kept by the filter and is not expected *)
Example ex_wrong_versions : ex_run "feature/PROJ-14_x" ex_devs ["4.0.1"; "10.0.0"] = Some IncorrectFixVersion.
Proof. vm_compute. reflexivity. Qed.

(* hotfix target: the hotfix version is listed, the rest is not looked at *)
Example ex_hotfix_listed : ex_run "bugfix/PROJ-15" [HotfixBranch] ["4.0.1.2"] = Some Ok.
Proof. vm_compute. reflexivity. Qed.

Example ex_hotfix_missing : ex_run "bugfix/PROJ-12" [HotfixBranch] ["4.0.1.2"] = Some IncorrectFixVersion.
Proof. vm_compute. reflexivity. Qed.

Example ex_prefix_bypassed : ex_run "dependabot/npm/foo-1.2" ex_devs ["4.0.1"] = Some Ok.
Proof. vm_compute. reflexivity. Qed.

(* hotfix branch without a tag: "4.0.1.-1" is expected and can never be matched, whatever the issue lists *)
Example ex_untagged_hotfix fix_versions : ~ versions_fit fix_versions ["4.0.1.-1"].
Proof.
  apply odd_expected_never_fits.
  - intro H. apply unsuffixedb_iff in H. vm_compute in H. discriminate H.
  - intro H. apply hotfix_versionb_iff in H. vm_compute in H. discriminate H.
Qed.

(* the hypothesis "no line feed" matters: the code keeps "4.0.1\n" (as a name different from "4.0.1") *)
Example ex_lf_kept :
  vfilter_match ("4.0.1" ++ String LF "") = true /\ unsuffixedb ("4.0.1" ++ String LF "") = false.
Proof. split; vm_compute; reflexivity. Qed.

Example ex_not_a_feature : ex_run "development/4.0" ex_devs ["4.0.1"] = Some AttributeErr.
Proof. vm_compute. reflexivity. Qed.
