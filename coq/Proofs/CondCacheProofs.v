(* Soundness of the conditional-request cache (Model/CondCache.v): when the cache key determines the resource, every
   GET returns what the host holds for the requested resource at that moment - for every sequence of requests,
   content changes on the host and evictions, and for each kind of validator the host sends.  With a key that does
   not determine the resource the statement is false (stale_for_another_resource). *)
From Coq Require Import List Arith Bool Lia.
Require Import BertE.Model.CondCache.
Import ListNotations.

Lemma lookup_remove k k' c : lookup k (remove_key k' c) = if Nat.eqb k k' then None else lookup k c.
Proof.
  induction c as [|[k2 e] t IH]; cbn [remove_key lookup]; [destruct (Nat.eqb k k'); reflexivity|].
  destruct (Nat.eqb_spec k' k2) as [<-|N]; cbn [lookup].
  - rewrite IH. destruct (Nat.eqb k k'); reflexivity.
  - rewrite IH. destruct (Nat.eqb_spec k k2) as [->|_]; [|reflexivity].
    destruct (Nat.eqb_spec k2 k') as [E|_]; [destruct (N (eq_sym E)) | reflexivity].
Qed.

Lemma lookup_store k k' e c : lookup k (store k' e c) = if Nat.eqb k k' then Some e else lookup k c.
Proof. unfold store. cbn [lookup]. rewrite lookup_remove. destruct (Nat.eqb k k'); reflexivity. Qed.

Section Sound.
Variable keyf : nat -> nat.
Hypothesis keyf_inj : forall a b, keyf a = keyf b -> a = b.

(* an entry stored under the key of r: its ETag, if it has one, is the hash of its own object (nothing about r: the
   host compares it with r's); otherwise its date is a time at which r had that object, if r has not changed since *)
Definition entry_ok (s : cstate) (r : nat) (e : centry) : Prop :=
  (forall t, e_tag e = Some t -> t = e_obj e) /\
  (e_tag e = None -> forall d, e_date e = Some d ->
     d <= s_clock s /\ (h_mtime (s_host s r) <= d -> h_content (s_host s r) = e_obj e)).

Definition Inv (s : cstate) : Prop :=
  (forall r, h_mtime (s_host s r) <= s_clock s) /\
  (forall r e, lookup (keyf r) (s_cache s) = Some e -> entry_ok s r e).

Lemma inv_init : Inv init_state.
Proof. split; [intros r; cbn; lia | intros r e H; cbn in H; discriminate]. Qed.

Lemma not_modified_answer s r e :
  Inv s -> lookup (keyf r) (s_cache s) = Some e -> not_modified (s_host s r) e = true ->
  e_obj e = h_content (s_host s r).
Proof.
  intros [_ I2] L NM. destruct (I2 r e L) as [Ht Hd]. unfold not_modified in NM.
  destruct (e_tag e) as [t|] eqn:Et.
  - apply Nat.eqb_eq in NM. rewrite <- (Ht t eq_refl). exact NM.
  - destruct (e_date e) as [d|] eqn:Ed; [|discriminate].
    apply Nat.leb_le in NM. destruct (Hd eq_refl d eq_refl) as [_ Hc]. symmetry. apply Hc. exact NM.
Qed.

(* a 200 stores an entry that is right for the resource requested; injectivity of the key keeps it apart from the
   entries of the other resources *)
Lemma inv_store s r e : Inv s -> entry_ok s r e ->
  Inv {| s_host := s_host s; s_clock := s_clock s; s_cache := store (keyf r) e (s_cache s) |}.
Proof.
  intros [I1 I2] He. split; [exact I1|]. cbn [s_cache]. intros r0 e0. rewrite lookup_store.
  destruct (Nat.eqb_spec (keyf r0) (keyf r)) as [E|_]; [|apply I2].
  intros [= <-]. apply keyf_inj in E. subst r0. exact He.
Qed.

Lemma inv_after_200 m s r :
  Inv s ->
  Inv {| s_host := s_host s; s_clock := s_clock s;
         s_cache := after_200 m (keyf r) (s_host s r) (s_cache s) |}.
Proof.
  intro I. destruct m; cbn [after_200].
  - exact I.
  - (* Last-Modified *) apply inv_store; [exact I|]. split; cbn.
    + discriminate.
    + intros _ d [= <-]. split; [apply I | reflexivity].
  - (* ETag *) apply inv_store; [exact I|]. split; cbn.
    + intros t [= <-]. reflexivity.
    + discriminate.
Qed.

(* one step: the invariant is kept, a Get answers the host's content of that resource, and contents move only by
   Change *)
Lemma cstep_sound m s o :
  Inv s ->
  let '(s', a) := cstep keyf m s o in
  Inv s' /\
  match o with
  | Get r => a = Some (h_content (s_host s r)) /\ (forall x, h_content (s_host s' x) = h_content (s_host s x))
  | Change r c => a = None /\ (forall x, h_content (s_host s' x) = if Nat.eqb x r then c else h_content (s_host s x))
  | Forget _ => a = None /\ (forall x, h_content (s_host s' x) = h_content (s_host s x))
  end.
Proof.
  intros I. destruct o as [r|r c|k]; cbn [cstep].
  - destruct (lookup (keyf r) (s_cache s)) as [e|] eqn:L.
    + destruct (not_modified (s_host s r) e) eqn:NM.
      * (* 304 *) split; [exact I|]. split; [|intros x; reflexivity].
        rewrite (not_modified_answer s r e I L NM). reflexivity.
      * split; [apply inv_after_200; exact I|]. split; [reflexivity | intros x; reflexivity].
    + split; [apply inv_after_200; exact I|]. split; [reflexivity | intros x; reflexivity].
  - destruct (Nat.eqb_spec c (h_content (s_host s r))) as [E|N].
    + split; [exact I|]. split; [reflexivity|]. intros x.
      destruct (Nat.eqb_spec x r) as [->|_]; [symmetry; exact E | reflexivity].
    + destruct I as [I1 I2]. split.
      * split; cbn [s_host s_clock s_cache].
        -- intros x. unfold set_host. destruct (Nat.eqb x r); cbn; [lia|]. specialize (I1 x). lia.
        -- intros r0 e L. destruct (I2 r0 e L) as [Ht Hd]. split; [exact Ht|].
           intros Hn d Ed. destruct (Hd Hn d Ed) as [Hle Hc]. cbn [s_clock s_host]. split; [lia|].
           unfold set_host. destruct (Nat.eqb r0 r); cbn; [intros Hm; lia | exact Hc].
      * split; [reflexivity|]. intros x. cbn [s_host]. unfold set_host.
        destruct (Nat.eqb x r); reflexivity.
  - destruct I as [I1 I2]. split.
    + split; cbn [s_host s_clock s_cache]; [exact I1|]. intros r0 e L.
      rewrite lookup_remove in L. destruct (Nat.eqb (keyf r0) k); [discriminate L | exact (I2 r0 e L)].
    + split; [reflexivity | intros x; reflexivity].
Qed.

(* the answers of the Gets, as in CondCache.answers *)
Definition gets (l : list (option nat)) : list nat :=
  flat_map (fun a => match a with Some x => [x] | None => [] end) l.

Lemma crun_sound m ops : forall s h,
  Inv s -> (forall x, h_content (s_host s x) = h_content (h x)) ->
  gets (snd (crun keyf m s ops)) = spec_answers h ops.
Proof.
  induction ops as [|o t IH]; intros s h I Hh; [reflexivity|].
  cbn [crun]. pose proof (cstep_sound m s o I) as St.
  destruct (cstep keyf m s o) as [s1 a]. destruct St as [I1 Ho]. specialize (IH s1).
  destruct (crun keyf m s1 t) as [s2 l]. cbn [snd] in *.
  destruct o as [r|r c|k]; destruct Ho as [-> Hc]; cbn [gets flat_map spec_answers app].
  - rewrite Hh. f_equal. apply IH; [exact I1|]. intros x. rewrite Hc. apply Hh.
  - apply IH; [exact I1|]. intros x. rewrite Hc. unfold set_host.
    destruct (Nat.eqb x r); [reflexivity | apply Hh].
  - apply IH; [exact I1|]. intros x. rewrite Hc. apply Hh.
Qed.

Theorem cache_sound m ops : answers keyf m ops = spec_answers init_host ops.
Proof. unfold answers. apply (crun_sound m ops init_state init_host inv_init). intros x. reflexivity. Qed.

End Sound.

Theorem code_cache_sound : forall m ops, answers key_id m ops = spec_answers init_host ops.
Proof. intros m ops. apply cache_sound. exact (fun a b H => H). Qed.

(* non-vacuity: a run in which the cache is used (a 304 is answered from it) and a changed resource is refetched *)
Example cache_is_used :
  answers key_id HDate [Change 2 7; Get 2; Get 2; Change 2 9; Get 2; Get 3] = [7; 7; 9; 0]
  /\ List.length (s_cache (fst (crun key_id HDate init_state [Change 2 7; Get 2; Get 2]))) = 1.
Proof. split; vm_compute; reflexivity. Qed.

(* with a key that does not determine the resource the statement fails: resources 2 and 3 share a key, the date kept
   for 2 is sent with the request for 3, which did not change since - the client answers with the content of 2 *)
Example stale_for_another_resource :
  answers key_lossy HDate [Change 3 5; Change 2 7; Get 2; Get 3] = [7; 7]
  /\ spec_answers init_host [Change 3 5; Change 2 7; Get 2; Get 3] = [7; 5].
Proof. split; vm_compute; reflexivity. Qed.
