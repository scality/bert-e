(* Model/IoCache.v instantiated with the guards observed on the running code (Generated/Facts_C17.v); apart from
   IoCacheProofs.v so that file does not depend on generated facts.  Imported by Properties/C17.v. *)
From Coq Require Import List String Bool.
Require Import BertE.Generated.Facts_C17 BertE.Model.IoCache BertE.Proofs.IoCacheProofs.
Import ListNotations.

Definition observed_guards_github : guards :=
  {| g_suite := inflight_guard_check_suite; g_poll := inflight_guard_poll_github |}.
Definition observed_guards_bitbucket : guards :=
  {| g_suite := inflight_guard_check_suite; g_poll := inflight_guard_poll_bitbucket |}.

Lemma observed_guards_all : observed_guards_github = all_guarded /\ observed_guards_bitbucket = all_guarded.
Proof. split; reflexivity. Qed.

