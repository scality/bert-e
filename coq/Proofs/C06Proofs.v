(* Proofs for C06: the model of check_build_status meets the specification for every vector.
   [kind_of] and [verdict_of] below are the vocabulary in which Properties/C06.v states C06_gate.
   Imported by Properties/C06.v and Properties/Pipeline.v (gate_pass_iff). *)
From Coq Require Import List String Bool Arith.
Require Import BertE.Generated.Facts_C06 BertE.Model.BuildGate BertE.Spec.C06Spec.
Import ListNotations.
Open Scope string_scope.

Lemma forallb_at_max {A} (p : A -> bool) l w :
  In w l -> (p w = true -> forall s, In s l -> p s = true) -> forallb p l = p w.
Proof.
  intros Hin H. destruct (p w) eqn:E.
  - apply forallb_forall, H. reflexivity.
  - apply not_true_is_false. intro X. rewrite forallb_forall in X. rewrite (X w Hin) in E. discriminate E.
Qed.

Lemma existsb_at_max {A} (p : A -> bool) l w :
  In w l -> (forall s, In s l -> p s = true -> p w = true) -> existsb p l = p w.
Proof.
  intros Hin H. destruct (p w) eqn:E.
  - apply existsb_exists. exists w. split; assumption.
  - apply not_true_is_false. intro X. apply existsb_exists in X as (s & Hs & Ps). discriminate (H s Hs Ps).
Qed.

(* What a caller of the gate observes, with the exception kinds of the code (Facts):
   a TemplateException is posted on the pull request by handle_pull_request, a SilentException is not. *)
Definition kind_of (cls : string) : string :=
  match find (fun p => fst p =? cls) exception_kind with Some p => snd p | None => "" end.

Definition verdict_of (o : outcome) : option verdict :=
  match o with
  | Pass => Some VEnter
  | Raise cls =>
      if kind_of cls =? "template" then (if cls =? "BuildFailed" then Some VToldFailed else None)
      else if kind_of cls =? "silent" then Some VWaitSilent else None
  | _ => None
  end.

(* rank, totalised; it is only read on known statuses (rank_eq) *)
Definition rk (s : bstatus) : nat := match rank s with Some r => r | None => 0 end.

Lemma rank_eq s : rank s = if is_known s then Some (rk s) else None.
Proof. destruct s; reflexivity. Qed.

Lemma ranks_eq ss : ranks ss = if forallb is_known ss then Some (map (fun s => (s, rk s)) ss) else None.
Proof.
  induction ss as [|s t IH]; cbn [forallb ranks map]; [reflexivity|].
  rewrite rank_eq, IH. destruct (is_known s), (forallb is_known t); reflexivity.
Qed.

Lemma worst_from_spec (f : bstatus -> nat) l : forall cur,
  let w := worst_from cur (f cur) (map (fun s => (s, f s)) l) in
  In w (cur :: l) /\ forall s, In s (cur :: l) -> f s <= f w.
Proof.
  induction l as [|x t IH]; intro cur; cbn [map worst_from].
  - split; [left; reflexivity|]. intros s [<-|[]]. apply le_n.
  - destruct (Nat.ltb_spec (f cur) (f x)) as [H|H].
    + destruct (IH x) as [Hin Hmax]. split; [right; exact Hin|].
      intros s [<-|Hs]; [|exact (Hmax s Hs)].
      exact (Nat.lt_le_incl _ _ (Nat.lt_le_trans _ _ _ H (Hmax x (or_introl eq_refl)))).
    + destruct (IH cur) as [Hin Hmax]. split; [destruct Hin as [<-|Hin]; cbn [In]; auto|].
      intros s [<-|[<-|Hs]]; [apply Hmax; left; reflexivity | | apply Hmax; right; exact Hs].
      exact (Nat.le_trans _ _ _ H (Hmax cur (or_introl eq_refl))).
Qed.

(* What the proof needs from the ranking of the code: SUCCESSFUL lowest, the two red statuses above
   the two waiting ones (the relative order inside each group is irrelevant to the property). *)
Lemma green_is_lowest s w : is_known s = true -> rk s <= rk w -> is_green w = true -> is_green s = true.
Proof.
  intros K L G. apply Nat.leb_le in L.
  destruct w; try discriminate G. destruct s; try reflexivity; try discriminate K; discriminate L.
Qed.

Lemma red_is_highest s w : is_known w = true -> rk s <= rk w -> is_red s = true -> is_red w = true.
Proof.
  intros K L R. apply Nat.leb_le in L.
  destruct s; try discriminate R; destruct w; try reflexivity; try discriminate K; discriminate L.
Qed.

Lemma verdict_of_worst w :
  is_known w = true ->
  verdict_of (decide_chain w raise_chain) =
  Some (if is_green w then VEnter else if is_red w then VToldFailed else VWaitSilent).
Proof. destruct w; intro K; try discriminate K; reflexivity. Qed.

Theorem gate_meets_spec bypass nokey ss :
  ss <> [] -> forallb is_known ss = true ->
  verdict_of (gate bypass nokey ss) = Some (spec bypass nokey ss).
Proof.
  intros Hne Hk. unfold gate, spec.
  destruct bypass; [reflexivity|]. destruct nokey; [reflexivity|]. cbn [orb].
  rewrite ranks_eq, Hk.
  destruct ss as [|c t]; [contradiction|]. cbn [map].
  destruct (worst_from_spec rk t c) as [Hin Hmax].
  set (w := worst_from c (rk c) (map (fun s => (s, rk s)) t)) in *.
  rewrite forallb_forall in Hk.
  rewrite (forallb_at_max is_green _ w Hin), (existsb_at_max is_red _ w Hin).
  - apply verdict_of_worst, Hk, Hin.
  - intros s Hs. apply red_is_highest; auto.
  - intros G s Hs. apply (green_is_lowest s w); auto.
Qed.

Lemma verdict_enter o v : verdict_of o = Some v -> (o = Pass <-> v = VEnter).
Proof.
  destruct o as [|cls| | |]; cbn [verdict_of]; try discriminate.
  - intros [= <-]. split; reflexivity.
  - destruct (kind_of cls =? "template"); [destruct (cls =? "BuildFailed") | destruct (kind_of cls =? "silent")];
      intros [= <-]; split; discriminate.
Qed.

Lemma spec_enter_iff bypass nokey ss :
  spec bypass nokey ss = VEnter <-> bypass = true \/ nokey = true \/ forallb is_green ss = true.
Proof.
  unfold spec. rewrite <- !orb_true_iff, orb_assoc.
  destruct (bypass || nokey || forallb is_green ss); [split; reflexivity|].
  destruct (existsb is_red ss); split; discriminate.
Qed.

Lemma forallb_green_iff ss : forallb is_green ss = true <-> forall s, In s ss -> s = SUCCESSFUL.
Proof.
  rewrite forallb_forall. split; intros H s Hs; specialize (H s Hs).
  - destruct s; try discriminate H; reflexivity.
  - subst s; reflexivity.
Qed.

Lemma existsb_red_iff ss : existsb is_red ss = true <-> exists s, In s ss /\ (s = FAILED \/ s = STOPPED).
Proof.
  rewrite existsb_exists. split; intros [s [Hs H]]; exists s; split; try exact Hs.
  - destruct s; try discriminate H; auto.
  - destruct H; subst s; reflexivity.
Qed.

Corollary gate_pass_iff bypass nokey ss :
  ss <> [] -> forallb is_known ss = true ->
  (gate bypass nokey ss = Pass <->
   bypass = true \/ nokey = true \/ forall s, In s ss -> s = SUCCESSFUL).
Proof.
  intros Hne Hk.
  rewrite (verdict_enter _ _ (gate_meets_spec bypass nokey ss Hne Hk)), spec_enter_iff, forallb_green_iff.
  reflexivity.
Qed.

Example c06_example_enter : gate false false [SUCCESSFUL; SUCCESSFUL; SUCCESSFUL] = Pass.
Proof. vm_compute. reflexivity. Qed.
Example c06_example_failed :
  verdict_of (gate false false [SUCCESSFUL; INPROGRESS; STOPPED; NOTSTARTED]) = Some VToldFailed.
Proof. vm_compute. reflexivity. Qed.
Example c06_example_wait :
  verdict_of (gate false false [SUCCESSFUL; INPROGRESS; NOTSTARTED]) = Some VWaitSilent.
Proof. vm_compute. reflexivity. Qed.
Example c06_example_bypass : gate true false [FAILED] = Pass /\ gate false true [FAILED] = Pass.
Proof. vm_compute. split; reflexivity. Qed.
