(* Proofs for C17, imported by Properties/C17.v only.  Five parts, each feeding the theorems of Properties/C17.v named:
   1. aggregation: AggregatedWorkflowRuns.state (Model/CI.v) against Spec/C17Spec.v, run lists of any length
      (C17_considered ... C17_per_branch_reading_differs);
   2. the normal form of runs behind the enumeration alphabet (C17_reduction), and Status.state (C17_status_state);
   3. LRUCache (Model/Lru.v): lookups after get and set, order of the keys (the C17_lru_ theorems);
   4. the status-cache protocol: one write, the refresh loop, one operation (step_spec), whole runs; the sticky
      theorems, the monitor of Spec/C17Spec.v (C17_no_exception ... C17_reports_are_dicts);
   5. the renaming of states behind the enumeration of the protocol (C17_cache_reduction, C17_two_valued).
   Helper definitions carry the prefix c17_ (the library has one name space); lemmas are named after the model function
   they describe, *_spec saying what it leaves behind. *)
From Coq Require Import List String Bool Arith ZArith Lia.
Require Import BertE.Base.Lists.
Require Import BertE.Generated.Facts_C17 BertE.Model.CI BertE.Model.Lru BertE.Spec.C17Spec.
Import ListNotations.
Open Scope string_scope.
Open Scope list_scope.

(* general facts that neither the standard library nor Base/Lists.v has *)
Lemma c17_ltb_of_nat a b : (Z.of_nat a <? Z.of_nat b)%Z = (a <? b)%nat.
Proof. apply eq_true_iff_eq. rewrite Z.ltb_lt, Nat.ltb_lt. symmetry. apply Nat2Z.inj_lt. Qed.

Lemma Ok_inj {A} (a b : A) : Ok a = Ok b -> a = b.
Proof. intros [= H]. exact H. Qed.

Lemma flat_map_length_le {A B} (f : A -> list B) l :
  (forall x, (List.length (f x) <= 1)%nat) -> (List.length (flat_map f l) <= List.length l)%nat.
Proof.
  intro H. induction l as [|x t IH]; cbn [flat_map List.length]; [lia|].
  rewrite app_length. specialize (H x). lia.
Qed.

(* The generated facts meet the literals of the specification by conversion, here and nowhere else: in rank_spec
   (conclusion_ranking), remove_unwanted_eq (dispatch_event), all_success_spec (success_conclusion), norm_pending and
   norm_queued (the two statuses), and in agg_complete and pick_in's use (state_chain, state_default).  A changed
   fact shows as a failure of one of these.
   conclusion_ranking is the specification's order on the conclusions of the quantifier; any other conclusion is
   not a key of the dict and the lookup raises *)
Lemma rank_spec c : rank c = if spec_known c then Some (Z.of_nat (spec_rank c)) else None.
Proof.
  destruct c as [s|]; [|reflexivity].
  unfold rank, spec_known, spec_rank. cbn [conclusion_ranking lookup_rank oeqb].
  rewrite !(String.eqb_sym _ s).
  destruct (s =? "success"), (s =? "failure"), (s =? "cancelled"); reflexivity.
Qed.

Lemma rank_unknown c : spec_known c = false -> rank c = None.
Proof. intro H. rewrite rank_spec, H. reflexivity. Qed.

Lemma remove_unwanted_eq runs :
  remove_unwanted runs = match best_runs [] (not_dispatch runs) with Ok b => Ok (map snd b) | KeyError => KeyError end.
Proof. reflexivity. Qed.

Lemma all_success_spec g : all_success g = forallb spec_success g.
Proof.
  unfold all_success. apply forallb_ext_in. intros r _. unfold spec_success, oeqb.
  destruct (r_conclusion r); reflexivity.
Qed.

Lemma first_wids_In w p : In w (first_wids p) <-> exists r, In r p /\ r_wid r = w.
Proof.
  induction p as [|x t IH]; cbn [first_wids].
  - split; [intros [] | intros [r [[] _]]].
  - split.
    + intros [<-|H]; [exists x; split; [left|]; reflexivity|].
      apply filter_In in H as [H _]. apply IH in H as [r [Hr Hw]]. exists r. split; [right|]; assumption.
    + intros [r [[<-|Hr] Hw]]; [left; exact Hw|].
      destruct (Z.eq_dec w (r_wid x)) as [->|Hne]; [left; reflexivity|]. right.
      apply filter_In. split; [apply IH; exists r; split; assumption|].
      apply negb_true_iff, Z.eqb_neq. exact Hne.
Qed.

Lemma first_wids_NoDup p : NoDup (first_wids p).
Proof.
  induction p as [|x t IH]; cbn [first_wids]; constructor.
  - intro H. apply filter_In in H as [_ H]. rewrite Z.eqb_refl in H. discriminate H.
  - apply NoDup_filter. exact IH.
Qed.

Lemma first_wids_snoc p r :
  first_wids (p ++ [r]) = if in_dec Z.eq_dec (r_wid r) (first_wids p) then first_wids p
                          else first_wids p ++ [r_wid r].
Proof.
  induction p as [|x t IH]; [reflexivity|].
  cbn [app first_wids]. rewrite IH.
  destruct (in_dec Z.eq_dec (r_wid r) (first_wids t)) as [Hin|Hnin];
  destruct (in_dec Z.eq_dec (r_wid r) (r_wid x :: filter (fun w => negb (w =? r_wid x)%Z) (first_wids t)))
    as [Hin'|Hnin']; try reflexivity.
  - exfalso. apply Hnin'. destruct (Z.eq_dec (r_wid x) (r_wid r)) as [E|Hne]; [left; exact E|]. right.
    apply filter_In. split; [exact Hin|]. apply negb_true_iff, Z.eqb_neq. congruence.
  - rewrite filter_app. cbn [filter].
    destruct Hin' as [E|Hin']; [|apply filter_In in Hin' as [Hin' _]; contradiction].
    rewrite <- E, Z.eqb_refl. cbn [negb]. rewrite app_nil_r. reflexivity.
  - rewrite filter_app. cbn [filter].
    destruct (r_wid r =? r_wid x)%Z eqn:E; [|reflexivity].
    apply Z.eqb_eq in E. exfalso. apply Hnin'. left. symmetry. exact E.
Qed.

Lemma best_from_snoc l : forall cur r,
  best_from cur (l ++ [r]) =
  (if (spec_rank (r_conclusion (best_from cur l)) <? spec_rank (r_conclusion r))%nat then r else best_from cur l).
Proof.
  induction l as [|x t IH]; intros cur r; [reflexivity|].
  cbn [app best_from]. destruct (spec_rank (r_conclusion cur) <? spec_rank (r_conclusion x))%nat; apply IH.
Qed.

Lemma best_from_In l : forall cur, In (best_from cur l) (cur :: l).
Proof.
  induction l as [|x t IH]; intro cur; cbn [best_from]; [left; reflexivity|].
  destruct (spec_rank (r_conclusion cur) <? spec_rank (r_conclusion x))%nat.
  - right. apply IH.
  - destruct (IH cur) as [E|H]; [left; exact E | right; right; exact H].
Qed.

Lemma best_of_In w p b : best_of w p = Some b -> In b p /\ r_wid b = w.
Proof.
  unfold best_of. destruct (runs_of w p) as [|x t] eqn:E; [discriminate|]. intros [= <-].
  assert (Hin : In (best_from x t) (runs_of w p)) by (rewrite E; apply best_from_In).
  apply filter_In in Hin as [Hin Hw]. split; [exact Hin | apply Z.eqb_eq; exact Hw].
Qed.

Lemma best_of_none w p : best_of w p = None <-> ~ In w (first_wids p).
Proof.
  rewrite first_wids_In. unfold best_of, runs_of. split.
  - intros H [r [Hr Hw]].
    assert (Hin : In r (filter (fun r => (r_wid r =? w)%Z) p))
      by (apply filter_In; split; [exact Hr | apply Z.eqb_eq; exact Hw]).
    destruct (filter _ p); [exact Hin | discriminate H].
  - intro H. rewrite filter_none; [reflexivity|]. intros r Hr. apply Z.eqb_neq. intro E. apply H.
    exists r. split; assumption.
Qed.

(* the run appended replaces the best run of its workflow only when it ranks strictly higher *)
Lemma best_of_snoc w p r :
  best_of w (p ++ [r]) =
  if (r_wid r =? w)%Z
  then Some match best_of w p with
            | Some b => if (spec_rank (r_conclusion b) <? spec_rank (r_conclusion r))%nat then r else b
            | None => r
            end
  else best_of w p.
Proof.
  unfold best_of, runs_of. rewrite filter_app. cbn [filter].
  destruct (r_wid r =? w)%Z; [|rewrite app_nil_r; reflexivity].
  destruct (filter _ p) as [|x t]; [reflexivity|]. cbn [app]. rewrite best_from_snoc. reflexivity.
Qed.

(* the dict best_runs after a prefix p of the (non-dispatch) runs: per workflow id, in order of first appearance, the
   best run of p *)
Definition c17_entry (p : list run) (w : Z) : list (Z * run) :=
  match best_of w p with Some b => [(w, b)] | None => [] end.
Definition c17_table (p : list run) : list (Z * run) := flat_map (c17_entry p) (first_wids p).
Definition known_runs (l : list run) : Prop := forallb (fun r => spec_known (r_conclusion r)) l = true.

Lemma considered_table runs : considered runs = map snd (c17_table (not_dispatch runs)).
Proof.
  unfold considered, c17_table. induction (first_wids (not_dispatch runs)) as [|w ws IH]; [reflexivity|].
  cbn [flat_map]. rewrite map_app, IH. unfold c17_entry.
  destruct (best_of w (not_dispatch runs)); reflexivity.
Qed.

(* the entries of workflows other than that of the appended run do not move *)
Lemma c17_entries_snoc p r ws :
  ~ In (r_wid r) ws -> flat_map (c17_entry (p ++ [r])) ws = flat_map (c17_entry p) ws.
Proof.
  intro H. apply flat_map_ext_in. intros w Hw. unfold c17_entry. rewrite best_of_snoc.
  destruct (Z.eqb_spec (r_wid r) w) as [<-|_]; [destruct (H Hw) | reflexivity].
Qed.

Lemma best_runs_snoc p : forall acc r,
  best_runs acc (p ++ [r]) = match best_runs acc p with Ok b => upsert b r | KeyError => KeyError end.
Proof.
  induction p as [|x t IH]; intros acc r; cbn [app best_runs].
  - destruct (upsert acc r); reflexivity.
  - destruct (upsert acc x); [apply IH | reflexivity].
Qed.

Lemma upsert_absent best r :
  (forall e, In e best -> fst e <> r_wid r) -> upsert best r = Ok (best ++ [(r_wid r, r)]).
Proof.
  induction best as [|[w b] t IH]; intro H; cbn [upsert app]; [reflexivity|].
  destruct (Z.eqb_spec w (r_wid r)) as [E|_]; [destruct (H (w, b) (or_introl eq_refl) E)|].
  rewrite IH; [reflexivity|]. intros e He. apply H. right. exact He.
Qed.

Lemma upsert_table p r : known_runs p -> spec_known (r_conclusion r) = true ->
  forall ws, NoDup ws -> In (r_wid r) ws -> (forall w, In w ws -> best_of w p <> None) ->
  upsert (flat_map (c17_entry p) ws) r = Ok (flat_map (c17_entry (p ++ [r])) ws).
Proof.
  intros Kp Kr. induction ws as [|w ws IH]; intros Hnd Hin Hsome; [destruct Hin|].
  apply NoDup_cons_iff in Hnd as [Hnotin Hnd].
  cbn [flat_map]. unfold c17_entry at 1 3. rewrite best_of_snoc.
  destruct (best_of w p) as [b|] eqn:Eb; [|destruct (Hsome w (or_introl eq_refl) Eb)].
  cbn [app upsert]. rewrite (Z.eqb_sym (r_wid r)). destruct (Z.eqb_spec w (r_wid r)) as [->|E].
  - assert (Kb : spec_known (r_conclusion b) = true).
    { apply best_of_In in Eb as [Hb _]. unfold known_runs in Kp. rewrite forallb_forall in Kp. exact (Kp b Hb). }
    rewrite !rank_spec, Kr, Kb, c17_ltb_of_nat, (c17_entries_snoc p r ws Hnotin).
    destruct (spec_rank (r_conclusion b) <? spec_rank (r_conclusion r))%nat; reflexivity.
  - rewrite IH; [reflexivity | exact Hnd | |].
    + destruct Hin as [Hin|Hin]; [contradiction | exact Hin].
    + intros w' Hw'. apply Hsome. right. exact Hw'.
Qed.

Lemma table_keys p e : In e (c17_table p) -> In (fst e) (first_wids p).
Proof.
  unfold c17_table. intro H. apply in_flat_map in H as [w [Hw He]]. unfold c17_entry in He.
  destruct (best_of w p); [|destruct He]. destruct He as [<-|[]]. exact Hw.
Qed.

Lemma best_runs_table p : known_runs p -> best_runs [] p = Ok (c17_table p).
Proof.
  induction p as [|r p IH] using rev_ind; intro K; [reflexivity|].
  unfold known_runs in K. rewrite forallb_app in K. apply andb_true_iff in K as [Kp Kr].
  cbn [forallb] in Kr. rewrite andb_true_r in Kr.
  rewrite best_runs_snoc, (IH Kp). unfold c17_table at 2. rewrite first_wids_snoc.
  destruct (in_dec Z.eq_dec (r_wid r) (first_wids p)) as [Hin|Hnin].
  - apply upsert_table; [exact Kp | exact Kr | apply first_wids_NoDup | exact Hin |].
    intros w Hw E. apply best_of_none in E. exact (E Hw).
  - rewrite upsert_absent by (intros e He E; apply Hnin; rewrite <- E; apply table_keys; exact He).
    rewrite flat_map_app, (c17_entries_snoc p r _ Hnin). cbn [flat_map]. unfold c17_entry at 2.
    rewrite best_of_snoc, Z.eqb_refl. apply best_of_none in Hnin. rewrite Hnin. reflexivity.
Qed.

(* remove_unwanted_workflows keeps exactly the considered runs of the specification, in dict order *)
Theorem remove_unwanted_considered runs :
  known_runs (not_dispatch runs) -> remove_unwanted runs = Ok (considered runs).
Proof. intro K. rewrite remove_unwanted_eq, (best_runs_table _ K), considered_table. reflexivity. Qed.

Definition group_key (g : list run) : string := match g with r :: _ => r_branch r | [] => "" end.

Lemma groups_concat l : List.concat (groups l) = l.
Proof.
  induction l as [|r t IH]; [reflexivity|]. cbn [groups].
  destruct (groups t) as [|[|r' g] gs]; cbn [List.concat app] in *.
  - rewrite <- IH. reflexivity.
  - rewrite IH. reflexivity.
  - destruct (r_branch r =? r_branch r'); cbn [List.concat app]; rewrite <- IH; reflexivity.
Qed.

Lemma groups_In l r : In r l <-> exists g, In g (groups l) /\ In r g.
Proof. rewrite <- (groups_concat l) at 1. apply in_concat. Qed.

(* every group is non-empty and its runs all carry the group's branch *)
Lemma groups_homogeneous l g :
  In g (groups l) -> g <> [] /\ forall r, In r g -> r_branch r = group_key g.
Proof.
  revert g. induction l as [|r t IH]; intros g; cbn [groups]; [intros []|].
  assert (S : [r] <> [] /\ forall x, In x [r] -> r_branch x = group_key [r])
    by (split; [discriminate | intros x [<-|[]]; reflexivity]).
  destruct (groups t) as [|[|r' g'] gs] eqn:E.
  - intros [<-|[]]. exact S.
  - intros [<-|H]; [exact S | apply IH; right; exact H].
  - destruct (String.eqb_spec (r_branch r) (r_branch r')) as [Eb|_].
    + intros [<-|H]; [|apply IH; right; exact H]. split; [discriminate|]. intros x [<-|Hx]; [reflexivity|].
      destruct (IH (r' :: g') (or_introl eq_refl)) as [_ Hh]. cbn [group_key] in *. rewrite Eb. apply Hh. exact Hx.
    + intros [<-|H]; [exact S | apply IH; exact H].
Qed.

Lemma groups_key_in l g : In g (groups l) -> In (group_key g) (map r_branch l).
Proof.
  intro H. destruct (groups_homogeneous l g H) as [Hne _].
  destruct g as [|x g']; [contradiction|]. cbn [group_key]. apply in_map.
  apply groups_In. exists (x :: g'). split; [exact H | left; reflexivity].
Qed.

(* when the runs of one branch follow each other no two groups carry the same branch *)
Lemma groups_keys_NoDup l : contiguous (map r_branch l) -> NoDup (map group_key (groups l)).
Proof.
  induction l as [|r t IH]; [intros _; constructor|].
  cbn [map contiguous]. intros [Hhead Ht]. specialize (IH Ht). cbn [groups].
  destruct (groups t) as [|[|r' g'] gs] eqn:E.
  - cbn. constructor; [intros []|constructor].
  - destruct (groups_homogeneous t []) as [Hne _]; [rewrite E; left; reflexivity | destruct (Hne eq_refl)].
  - destruct t as [|y t']; [discriminate E|].
    assert (Hy : r_branch y = r_branch r').
    { pose proof (groups_concat (y :: t')) as Hc. rewrite E in Hc. cbn [List.concat app] in Hc. injection Hc as Hc _.
      rewrite Hc. reflexivity. }
    destruct (r_branch r =? r_branch r') eqn:Eb.
    + apply String.eqb_eq in Eb. cbn [map group_key] in *. rewrite Eb. exact IH.
    + apply String.eqb_neq in Eb.
      change (map group_key ([r] :: (r' :: g') :: gs)) with (r_branch r :: map group_key ((r' :: g') :: gs)).
      constructor; [|exact IH].
      cbn [map] in Hhead. destruct Hhead as [Hh|Hh]; [congruence|].
      intro Hin. apply Hh.
      apply in_map_iff in Hin as [g [Hk Hg]]. rewrite <- Hk.
      change (r_branch y :: map r_branch t') with (map r_branch (y :: t')).
      apply groups_key_in. rewrite E. exact Hg.
Qed.

(* a group then holds every run of its branch *)
Lemma groups_complete l g :
  NoDup (map group_key (groups l)) -> In g (groups l) ->
  forall r, In r l -> r_branch r = group_key g -> In r g.
Proof.
  intros Hnd Hg r Hr Hb. apply groups_In in Hr as [g' [Hg' Hrg']].
  destruct (groups_homogeneous l g' Hg') as [_ Hh].
  rewrite <- (NoDup_map_inj group_key (groups l) g' g Hnd Hg' Hg); [exact Hrg'|].
  rewrite <- (Hh r Hrg'). exact Hb.
Qed.

Lemma branch_state_successful g :
  branch_state g = "SUCCESSFUL" <->
  g <> [] /\ forallb spec_success g = true /\ is_pending g = false /\ is_queued g = false.
Proof.
  unfold branch_state. rewrite all_success_spec.
  assert (C : forallb spec_success g = true -> all_complete g = true).
  { unfold all_complete. rewrite !forallb_forall. intros H r Hr. specialize (H r Hr). unfold spec_success in H.
    destruct (r_conclusion r); [reflexivity | discriminate]. }
  destruct g as [|x t]; [split; [discriminate | intros [H _]; destruct (H eq_refl)]|].
  cbv iota. set (g := x :: t) in *.
  destruct (is_pending g), (is_queued g); cbn [orb];
    try (split; [discriminate | intros (_ & _ & P & Q); discriminate]).
  destruct (forallb spec_success g).
  - rewrite (C eq_refl). split; [intros _; repeat split; discriminate | reflexivity].
  - destruct (all_complete g); (split; [discriminate | intros (_ & S & _); discriminate S]).
Qed.

Lemma pick_in chain sts x : pick chain sts = x -> x <> state_default -> In x sts.
Proof.
  induction chain as [|y t IH]; cbn [pick]; intros H Hd; [congruence|].
  destruct (existsb (String.eqb y) sts) eqn:E; [|apply IH; assumption].
  subst y. apply (existsb_eqb_In String.eqb String.eqb_eq). exact E.
Qed.

Lemma pick_first x t sts : In x sts -> pick (x :: t) sts = x.
Proof. intro H. cbn [pick]. apply (existsb_eqb_In String.eqb String.eqb_eq) in H. rewrite H. reflexivity. Qed.

(* C17_agg *)
Theorem agg_sound runs :
  known_runs (not_dispatch runs) -> contiguous (map r_branch (considered runs)) ->
  state runs = Ok "SUCCESSFUL" -> spec_green runs = true.
Proof.
  intros K C. unfold state. rewrite (remove_unwanted_considered runs K). intro H.
  apply Ok_inj, pick_in in H; [|discriminate].
  apply in_map_iff in H as [g [Hs Hg]]. apply branch_state_successful in Hs as (Hne & S & _ & _).
  destruct (groups_homogeneous _ g Hg) as [_ Hh]. rewrite forallb_forall in S.
  unfold spec_green. apply existsb_exists. exists (group_key g). split; [apply groups_key_in; exact Hg|].
  apply forallb_forall. intros r Hr. apply filter_In in Hr as [Hr Hb]. apply String.eqb_eq in Hb.
  apply S, (groups_complete (considered runs) g); try assumption. apply groups_keys_NoDup. exact C.
Qed.

(* two branch names at most are always contiguous; with at most two workflow ids there are at most two considered runs *)
Lemma contiguous_short (l : list string) : (List.length l <= 2)%nat -> contiguous l.
Proof.
  destruct l as [|x [|y [|z t]]]; cbn; intro H; try lia; repeat split; auto.
  destruct (string_dec x y) as [E|E]; [left; exact E | right; intros [E'|[]]; congruence].
Qed.

(* never SUCCESSFUL without a run that counts *)
Theorem agg_no_run runs : not_dispatch runs = [] -> state runs = Ok "NOTSTARTED".
Proof. intro H. unfold state. rewrite remove_unwanted_eq, H. reflexivity. Qed.

Corollary agg_empty : state [] = Ok "NOTSTARTED".
Proof. apply agg_no_run. reflexivity. Qed.

(* the converse (not demanded by the statement): a branch whose considered runs all succeeded and none
   of which is pending or queued makes the state SUCCESSFUL, however the runs are interleaved *)
Theorem agg_complete runs :
  known_runs (not_dispatch runs) -> spec_green_ready runs = true -> state runs = Ok "SUCCESSFUL".
Proof.
  intros K H. unfold state. rewrite (remove_unwanted_considered runs K). f_equal.
  apply existsb_exists in H as [b [Hb Hall]]. apply in_map_iff in Hb as [r [Hrb Hr]].
  apply groups_In in Hr as [g [Hg Hrg]]. destruct (groups_homogeneous _ g Hg) as [Hne Hh].
  assert (Hsub : forall x, In x g -> spec_success x = true /\ r_status x =? "pending" = false /\ r_status x =? "queued" = false).
  { intros x Hx. rewrite forallb_forall in Hall. specialize (Hall x). rewrite andb_true_iff, negb_true_iff in Hall.
    unfold spec_waiting in Hall. rewrite orb_false_iff in Hall. apply Hall, filter_In. split.
    - apply groups_In. exists g. split; assumption.
    - apply String.eqb_eq. rewrite (Hh x Hx), <- (Hh r Hrg). exact Hrb. }
  change state_chain with ("SUCCESSFUL" :: tl state_chain). apply pick_first.
  apply in_map_iff. exists g. split; [|exact Hg]. apply branch_state_successful. split; [exact Hne|].
  split; [apply forallb_forall | split; apply existsb_false_iff]; intros x Hx; apply (Hsub x Hx).
Qed.

(* a conclusion outside conclusion_ranking raises as soon as the ranking is consulted *)
Example agg_keyerror :
  state [mkRun "push" "completed" (Some "weird") 1 "bA"; mkRun "push" "completed" (Some "success") 1 "bA"] = KeyError
  /\ state [mkRun "push" "completed" (Some "weird") 1 "bA"] = Ok "FAILED".
Proof. vm_compute. split; reflexivity. Qed.

(* F9, the witness of C17_agg_refuted: with three workflow ids consecutive grouping splits branch bA in two groups and the first one,
   green on its own, makes the commit SUCCESSFUL although workflow 3 failed on bA. *)
Definition f9_witness : list run :=
  [mkRun "push" "completed" (Some "success") 1 "bA";
   mkRun "push" "completed" (Some "failure") 2 "bB";
   mkRun "push" "completed" (Some "failure") 3 "bA"].

(* non-vacuity *)
Example agg_example_green :
  let runs := [mkRun "push" "completed" (Some "failure") 1 "bA"; mkRun "workflow_dispatch" "completed" (Some "failure") 2 "bA";
               mkRun "pull_request" "completed" (Some "success") 1 "bB"; mkRun "push" "completed" (Some "success") 2 "bB"] in
  known_runs (not_dispatch runs) /\ (List.length (first_wids (not_dispatch runs)) <= 2)%nat /\
  state runs = Ok "SUCCESSFUL" /\ spec_green_ready runs = true.
Proof. vm_compute. repeat split; try reflexivity; lia. Qed.
Example agg_example_not_green :
  let runs := [mkRun "push" "completed" (Some "success") 1 "bA"; mkRun "push" "completed" (Some "failure") 2 "bA";
               mkRun "push" "queued" (Some "success") 1 "bB"] in
  known_runs (not_dispatch runs) /\ state runs = Ok "FAILED" /\ spec_green runs = false.
Proof. vm_compute. repeat split; reflexivity. Qed.

(* C17_per_branch_reading_differs: the other reading of "keeping the best run of each workflow" - the best run of each workflow ON EACH
   BRANCH - is not what the code computes, already with 3 runs, 2 workflow ids, 2 branches: workflow 2
   failed on bA, its re-run on bB is still in progress and outranks the failure in the single dict, so
   bA is left with workflow 1 only and the commit is SUCCESSFUL. *)
Definition per_branch_green (runs : list run) : bool :=
  existsb (fun b => let onb := on_branch b (not_dispatch runs) in
                    forallb spec_success (considered onb))
          (map r_branch (not_dispatch runs)).
Definition per_branch_witness : list run :=
  [mkRun "push" "completed" (Some "success") 1 "bA";
   mkRun "push" "completed" (Some "failure") 2 "bA";
   mkRun "push" "in_progress" None 2 "bB"].

(* the two reductions behind the 96-symbol alphabet: the event matters only as dispatch / not,
   the status only as pending / queued / anything else *)
Lemma norm_dispatch r : is_dispatch (norm_run r) = is_dispatch r.
Proof.
  unfold is_dispatch, norm_run, norm_event. cbn [r_event].
  destruct (r_event r =? dispatch_event) eqn:E; [apply String.eqb_refl | reflexivity].
Qed.

Lemma norm_pending s : (norm_status s =? pending_status) = (s =? pending_status).
Proof.
  unfold norm_status. destruct (s =? pending_status) eqn:P; [apply String.eqb_refl|].
  destruct (s =? queued_status); reflexivity.
Qed.
Lemma norm_queued s : (norm_status s =? queued_status) = (s =? queued_status).
Proof.
  unfold norm_status. destruct (String.eqb_spec s pending_status) as [->|_]; [reflexivity|].
  destruct (s =? queued_status); [apply String.eqb_refl | reflexivity].
Qed.

Lemma not_dispatch_norm rs : not_dispatch (map norm_run rs) = map norm_run (not_dispatch rs).
Proof.
  unfold not_dispatch. rewrite filter_map_swap. f_equal. apply filter_ext. intro r. f_equal.
  exact (norm_dispatch r).
Qed.

Definition c17_nb (e : Z * run) : Z * run := (fst e, norm_run (snd e)).

Lemma upsert_norm best r :
  upsert (map c17_nb best) (norm_run r) =
  match upsert best r with Ok b => Ok (map c17_nb b) | KeyError => KeyError end.
Proof.
  induction best as [|[w b] t IH]; [reflexivity|].
  cbn [map c17_nb fst snd upsert]. change (r_wid (norm_run r)) with (r_wid r).
  change (r_conclusion (norm_run r)) with (r_conclusion r). change (r_conclusion (norm_run b)) with (r_conclusion b).
  destruct (w =? r_wid r)%Z.
  - destruct (rank (r_conclusion r)) as [x|]; [|reflexivity].
    destruct (rank (r_conclusion b)) as [y|]; [|reflexivity].
    destruct (y <? x)%Z; reflexivity.
  - rewrite IH. destruct (upsert t r); reflexivity.
Qed.

Lemma best_runs_norm rs : forall best,
  best_runs (map c17_nb best) (map norm_run rs) =
  match best_runs best rs with Ok b => Ok (map c17_nb b) | KeyError => KeyError end.
Proof.
  induction rs as [|r t IH]; intro best; [reflexivity|].
  cbn [map best_runs]. rewrite upsert_norm. destruct (upsert best r) as [b|]; [apply IH | reflexivity].
Qed.

Lemma remove_unwanted_norm rs :
  remove_unwanted (map norm_run rs) =
  match remove_unwanted rs with Ok s => Ok (map norm_run s) | KeyError => KeyError end.
Proof.
  rewrite !remove_unwanted_eq, not_dispatch_norm. change (@nil (Z * run)) with (map c17_nb []) at 1.
  rewrite best_runs_norm. destruct (best_runs [] (not_dispatch rs)) as [b|]; [|reflexivity].
  rewrite !map_map. reflexivity.
Qed.

Lemma groups_norm l : groups (map norm_run l) = map (map norm_run) (groups l).
Proof.
  induction l as [|r t IH]; [reflexivity|]. cbn [map groups]. rewrite IH.
  destruct (groups t) as [|[|r' g] gs]; cbn [map]; try reflexivity.
  change (r_branch (norm_run r)) with (r_branch r). change (r_branch (norm_run r')) with (r_branch r').
  destruct (r_branch r =? r_branch r'); reflexivity.
Qed.

Lemma branch_state_norm g : branch_state (map norm_run g) = branch_state g.
Proof.
  assert (P : is_pending (map norm_run g) = is_pending g).
  { unfold is_pending. rewrite existsb_map. apply existsb_ext_in. intros r _. apply norm_pending. }
  assert (Q : is_queued (map norm_run g) = is_queued g).
  { unfold is_queued. rewrite existsb_map. apply existsb_ext_in. intros r _. apply norm_queued. }
  assert (C : all_complete (map norm_run g) = all_complete g) by apply forallb_map.
  assert (S : all_success (map norm_run g) = all_success g) by apply forallb_map.
  unfold branch_state. rewrite P, Q, C, S. destruct g; reflexivity.
Qed.

Theorem state_norm rs : state (map norm_run rs) = state rs.
Proof.
  unfold state. rewrite remove_unwanted_norm. destruct (remove_unwanted rs) as [s|]; [|reflexivity].
  rewrite groups_norm, map_map. f_equal. f_equal. apply map_ext. intro g. apply branch_state_norm.
Qed.

(* ... and the specification's verdict is the same on the normal form *)
Theorem spec_green_norm rs : known_runs (not_dispatch rs) -> spec_green (map norm_run rs) = spec_green rs.
Proof.
  intro K. pose proof (remove_unwanted_norm rs) as H.
  assert (K' : known_runs (not_dispatch (map norm_run rs))).
  { unfold known_runs. rewrite not_dispatch_norm, forallb_map. exact K. }
  rewrite (remove_unwanted_considered _ K'), (remove_unwanted_considered _ K) in H.
  injection H as H. unfold spec_green. rewrite H, map_map. cbn [norm_run r_branch].
  apply existsb_ext_in. intros b _. unfold on_branch. rewrite filter_map_swap, forallb_map. reflexivity.
Qed.

(* Status.state is SUCCESSFUL for "success" only; a case analysis on the table status_trans of the generated facts *)
Lemma status_state_green : forall raw, status_state raw = Ok "SUCCESSFUL" <-> raw = Some "success".
Proof.
  intro raw. split; [|intros ->; reflexivity].
  destruct raw as [s|]; [|discriminate]. unfold status_state. cbn [status_trans lookup_trans oeqb].
  destruct ("pending" =? s); [discriminate|]. destruct (String.eqb_spec "success" s) as [<-|_]; [reflexivity|].
  destruct ("error" =? s); [discriminate|]. destruct ("failure" =? s); discriminate.
Qed.

(* self._dict of an LRUCache is an OrderedDict: each commit at most once *)
Definition lru_wf (l : lru) : Prop := NoDup (lru_keys l).

Lemma lru_lookup_cons c x v t : lru_lookup c ((x, v) :: t) = if x =? c then Some v else lru_lookup c t.
Proof. unfold lru_lookup. cbn [find fst]. destruct (x =? c); reflexivity. Qed.

Lemma lru_lookup_none c l : lru_lookup c l = None <-> ~ In c (lru_keys l).
Proof.
  induction l as [|[c' v] t IH]; [split; [intros _ [] | reflexivity]|].
  rewrite lru_lookup_cons. cbn [lru_keys map fst In]. destruct (String.eqb_spec c' c) as [E|E].
  - split; [discriminate | intro H; destruct (H (or_introl E))].
  - rewrite IH. split; [intros H [H'|H']; [contradiction | exact (H H')] | intros H H'; apply H; right; exact H'].
Qed.

Lemma lru_lookup_some c l : lru_lookup c l <> None <-> In c (lru_keys l).
Proof.
  rewrite lru_lookup_none. split; [|intros H N; exact (N H)].
  intro H. destruct (in_dec string_dec c (lru_keys l)) as [Hin|Hn]; [exact Hin | destruct (H Hn)].
Qed.

Lemma lru_lookup_snoc c' l c v :
  lru_lookup c' (l ++ [(c, v)]) =
  match lru_lookup c' l with Some x => Some x | None => if c =? c' then Some v else None end.
Proof.
  induction l as [|[x w] t IH]; cbn [app]; rewrite !lru_lookup_cons; [reflexivity|].
  destruct (x =? c'); [reflexivity | exact IH].
Qed.

Lemma lru_lookup_remove c' c l : lru_lookup c' (lru_remove c l) = if c =? c' then None else lru_lookup c' l.
Proof.
  induction l as [|[x v] t IH]; [destruct (c =? c'); reflexivity|].
  unfold lru_remove in *. cbn [filter fst]. rewrite lru_lookup_cons.
  destruct (String.eqb_spec x c) as [->|N]; cbn [negb]; [rewrite IH; destruct (c =? c'); reflexivity|].
  rewrite lru_lookup_cons, IH. destruct (String.eqb_spec x c') as [<-|_]; [|reflexivity].
  destruct (String.eqb_spec c x) as [E|_]; [destruct (N (eq_sym E)) | reflexivity].
Qed.

Lemma lru_remove_keys c l : lru_keys (lru_remove c l) = filter (fun x => negb (x =? c)) (lru_keys l).
Proof.
  unfold lru_keys, lru_remove. induction l as [|[x v] t IH]; cbn [filter map fst]; [reflexivity|].
  destruct (negb (x =? c)); cbn [map fst]; rewrite IH; reflexivity.
Qed.

Lemma lru_moved_keys c v l : lru_keys (lru_remove c l ++ [(c, v)]) = filter (fun x => negb (x =? c)) (lru_keys l) ++ [c].
Proof. unfold lru_keys at 1. rewrite map_app. apply (f_equal (fun k => k ++ [c])), lru_remove_keys. Qed.

Lemma c17_filter_notin l c : ~ In c l -> filter (fun x => negb (x =? c)) l = l.
Proof.
  intro H. apply filter_all. intros x Hx. apply negb_true_iff, String.eqb_neq. intros ->. exact (H Hx).
Qed.

(* duplicate-free keys taken among those of l are not more numerous *)
Lemma lru_length_le l' l : lru_wf l' -> (forall c, lru_lookup c l' <> None -> lru_lookup c l <> None) ->
  (List.length l' <= List.length l)%nat.
Proof.
  intros W I. rewrite <- (map_length fst l'), <- (map_length fst l). apply NoDup_incl_length; [exact W|].
  intros c Hc. apply lru_lookup_some, I, lru_lookup_some, Hc.
Qed.

(* sub holds some of the entries of l and none for commit c; get and set both build [sub ++ [(c, v)]] from such a
   part: l without c (the entry is moved to the end), or l without its oldest entries (c is new) *)
Definition lru_part (c : string) (sub l : lru) : Prop :=
  lru_wf sub /\ lru_lookup c sub = None /\
  forall c', lru_lookup c' sub = None \/ lru_lookup c' sub = lru_lookup c' l.

Lemma lru_remove_part c l : lru_wf l -> lru_part c (lru_remove c l) l.
Proof.
  intro W. split; [|split].
  - unfold lru_wf. rewrite lru_remove_keys. apply NoDup_filter, W.
  - rewrite lru_lookup_remove, String.eqb_refl. reflexivity.
  - intro c'. rewrite lru_lookup_remove. destruct (c =? c'); [left | right]; reflexivity.
Qed.

Lemma lru_skipn_part n c : forall l, lru_wf l -> lru_lookup c l = None -> lru_part c (skipn n l) l.
Proof.
  induction n as [|n IH]; intros [|[x v] t] W Hc; try (split; [exact W | split; [exact Hc | right; reflexivity]]).
  cbn [skipn]. apply NoDup_cons_iff in W as [Hx Ht]. apply lru_lookup_none in Hx.
  rewrite lru_lookup_cons in Hc. destruct (x =? c); [discriminate Hc|].
  destruct (IH t Ht Hc) as (W' & N & Cells). split; [exact W'|]. split; [exact N|].
  intro c'. rewrite lru_lookup_cons. destruct (String.eqb_spec x c') as [<-|_]; [left | apply Cells].
  destruct (Cells x) as [E|E]; [exact E | rewrite E; exact Hx].
Qed.

(* every other entry is evicted or unchanged *)
Lemma lru_snoc_spec c s sub l : lru_part c sub l ->
  lru_wf (sub ++ [(c, s)]) /\
  (lru_lookup c l <> None -> (List.length (sub ++ [(c, s)]) <= List.length l)%nat) /\
  lru_lookup c (sub ++ [(c, s)]) = Some s /\
  (forall c', c' <> c -> lru_lookup c' (sub ++ [(c, s)]) = None \/ lru_lookup c' (sub ++ [(c, s)]) = lru_lookup c' l).
Proof.
  intros (W & Hc & Cells).
  assert (W' : lru_wf (sub ++ [(c, s)])).
  { unfold lru_wf, lru_keys. rewrite map_app. apply NoDup_snoc; [exact W | apply lru_lookup_none, Hc]. }
  assert (Oth : forall c', c' <> c ->
                lru_lookup c' (sub ++ [(c, s)]) = None \/ lru_lookup c' (sub ++ [(c, s)]) = lru_lookup c' l).
  { intros c' Hne. rewrite lru_lookup_snoc. destruct (String.eqb_spec c c') as [E|_]; [destruct (Hne (eq_sym E))|].
    destruct (Cells c') as [E|E]; rewrite E; [left; reflexivity | right; destruct (lru_lookup c' l); reflexivity]. }
  split; [exact W'|]. split; [|split; [|exact Oth]].
  - intro Hin. apply lru_length_le; [exact W'|]. intros c' H.
    destruct (string_dec c' c) as [->|Hne]; [exact Hin|]. destruct (Oth c' Hne) as [E|E]; [destruct (H E) | rewrite <- E; exact H].
  - rewrite lru_lookup_snoc, Hc, String.eqb_refl. reflexivity.
Qed.

(* an eta-expansion: it lets the [let (cur, l1) := lru_get c l] of the model reduce *)
Lemma lru_get_eq c l : lru_get c l = (lru_lookup c l, snd (lru_get c l)).
Proof. unfold lru_get. destruct (lru_lookup c l); reflexivity. Qed.

(* get: the entry becomes the most recently used one; nothing else changes *)
Lemma lru_get_spec c l : lru_wf l ->
  lru_wf (snd (lru_get c l)) /\ (List.length (snd (lru_get c l)) <= List.length l)%nat /\
  forall c', lru_lookup c' (snd (lru_get c l)) = lru_lookup c' l.
Proof.
  intro W. unfold lru_get. destruct (lru_lookup c l) as [v|] eqn:E; cbn [snd]; [|repeat split; [exact W | lia]].
  destruct (lru_snoc_spec c v _ l (lru_remove_part c l W)) as (W' & L & _).
  split; [exact W'|]. split; [apply L; rewrite E; discriminate|].
  intro c'. rewrite lru_lookup_snoc, lru_lookup_remove.
  destruct (String.eqb_spec c c') as [<-|_]; [symmetry; exact E | destruct (lru_lookup c' l); reflexivity].
Qed.

Lemma lru_set_cells size c s l l' : lru_wf l -> lru_set size c s l = Ok l' ->
  lru_wf l' /\ ((List.length l <= size)%nat -> (List.length l' <= size)%nat) /\
  lru_lookup c l' = Some s /\
  (forall c', c' <> c -> lru_lookup c' l' = None \/ lru_lookup c' l' = lru_lookup c' l).
Proof.
  intro W. unfold lru_set. destruct (lru_lookup c l) as [v|] eqn:E.
  - intros [= <-]. destruct (lru_snoc_spec c s _ l (lru_remove_part c l W)) as (W' & L & Lk).
    split; [exact W'|]. split; [|exact Lk]. assert (L' := L ltac:(rewrite E; discriminate)). lia.
  - destruct size as [|m]; [discriminate|]. intros [= <-].
    destruct (lru_snoc_spec c s _ l (lru_skipn_part (List.length l - m) c l W E)) as (W' & _ & Lk).
    split; [exact W'|]. split; [|exact Lk]. intros _. rewrite app_length, skipn_length. cbn [List.length]. lia.
Qed.

Lemma lru_set_total size c s l : (1 <= size)%nat -> exists l', lru_set size c s l = Ok l'.
Proof.
  intro H. unfold lru_set. destruct (lru_lookup c l); [eexists; reflexivity|].
  destruct size as [|m]; [lia | eexists; reflexivity].
Qed.

(* a cache of size 0 cannot take a new commit: set raises *)
Lemma lru_set_size0 c s l : lru_lookup c l = None -> lru_set 0 c s l = KeyError.
Proof. intro H. unfold lru_set. rewrite H. reflexivity. Qed.

(* order of the keys after set: the written commit becomes the most recent; a new commit entering a full
   cache evicts exactly the least recently used one *)
Theorem lru_set_order size c v l l' : lru_set size c v l = Ok l' -> (List.length l <= size)%nat ->
  lru_keys l' =
  if in_dec string_dec c (lru_keys l) then filter (fun x => negb (x =? c)) (lru_keys l) ++ [c]
  else if (List.length l <? size)%nat then lru_keys l ++ [c] else tl (lru_keys l) ++ [c].
Proof.
  unfold lru_set. intros H L. destruct (in_dec string_dec c (lru_keys l)) as [Hin|Hnin].
  - apply lru_lookup_some in Hin. destruct (lru_lookup c l) as [v0|]; [|destruct (Hin eq_refl)].
    injection H as <-. apply lru_moved_keys.
  - apply lru_lookup_none in Hnin. rewrite Hnin in H. destruct size as [|m]; [discriminate|].
    injection H as <-. unfold lru_keys. rewrite map_app, <- skipn_map. cbn [map fst].
    destruct (Nat.ltb_spec (List.length l) (S m)) as [Hlt|Hge].
    + replace (List.length l - m)%nat with 0%nat by lia. reflexivity.
    + replace (List.length l - m)%nat with 1%nat by lia. destruct (map fst l); reflexivity.
Qed.

(* sequences of gets and sets on one LRUCache *)
Inductive lru_op := LGet (c : string) | LSet (c v : string).
Fixpoint lru_run (size : nat) (l : lru) (ops : list lru_op) : result lru :=
  match ops with
  | [] => Ok l
  | LGet c :: t => lru_run size (snd (lru_get c l)) t
  | LSet c v :: t => match lru_set size c v l with Ok l' => lru_run size l' t | KeyError => KeyError end
  end.

Lemma lru_run_bounded : forall size ops, (1 <= size)%nat -> forall l, lru_wf l -> (List.length l <= size)%nat ->
  exists l', lru_run size l ops = Ok l' /\ lru_wf l' /\ (List.length l' <= size)%nat.
Proof.
  intros size ops S1. induction ops as [|[c|c v] t IH]; intros l W L; cbn [lru_run].
  - exists l. repeat split; assumption.
  - destruct (lru_get_spec c l W) as (W1 & L1 & _). apply IH; [exact W1 | lia].
  - destruct (lru_set_total size c v l S1) as [l1 E]. rewrite E.
    destruct (lru_set_cells size c v l l1 W E) as (W1 & L1 & _). apply IH; [exact W1 | apply L1; exact L].
Qed.

Example lru_example_eviction :
  lru_run 2 [] [LSet "a" "1"; LSet "b" "2"; LGet "a"; LSet "c" "3"] = Ok [("a", "1"); ("c", "3")]
  /\ lru_run 0 [] [LSet "a" "1"] = KeyError.
Proof. vm_compute. split; reflexivity. Qed.

(* store, the (possibly guarded) write of the handlers and of get_commit_status; ogreen names the test of its guard *)
Definition ogreen (cur : option string) : bool := match cur with Some v => is_green v | None => false end.

Lemma store_eq g size c s l :
  store g size c s l =
  if g && ogreen (lru_lookup c l) then Ok (snd (lru_get c l)) else lru_set size c s (snd (lru_get c l)).
Proof. unfold store. rewrite (lru_get_eq c l). reflexivity. Qed.

(* the cell of c keeps its content when the write is guarded and the content is SUCCESSFUL *)
Lemma store_spec g size c s l l' : lru_wf l -> store g size c s l = Ok l' ->
  lru_wf l' /\ ((List.length l <= size)%nat -> (List.length l' <= size)%nat) /\
  lru_lookup c l' = (if g && ogreen (lru_lookup c l) then lru_lookup c l else Some s) /\
  (forall c', c' <> c -> lru_lookup c' l' = None \/ lru_lookup c' l' = lru_lookup c' l).
Proof.
  intro W. rewrite store_eq. destruct (lru_get_spec c l W) as (W1 & L1 & Lk1).
  destruct (g && ogreen (lru_lookup c l)).
  - intros [= <-]. split; [exact W1|]. split; [lia|]. split; [apply Lk1|]. intros c' _. right. apply Lk1.
  - intro H. destruct (lru_set_cells size c s _ l' W1 H) as (W' & L' & Lk & Oth).
    split; [exact W'|]. split; [intro; apply L'; lia|]. split; [exact Lk|].
    intros c' Hne. rewrite <- Lk1. exact (Oth c' Hne).
Qed.

Lemma store_total g size c s l : (1 <= size)%nat -> exists l', store g size c s l = Ok l'.
Proof. intro H. rewrite store_eq. destruct (g && _); [eexists; reflexivity | apply lru_set_total; exact H]. Qed.

(* the unguarded write is a plain set: get-then-set and set leave the same LRU *)
Lemma store_false_is_set size c s l : store false size c s l = lru_set size c s l.
Proof.
  rewrite store_eq. cbn [andb]. unfold lru_get. destruct (lru_lookup c l) as [v|] eqn:E; [|reflexivity].
  cbn [snd]. unfold lru_set. rewrite lru_lookup_snoc, lru_lookup_remove, String.eqb_refl, E.
  apply (f_equal (fun x => Ok (x ++ [(c, s)]))). unfold lru_remove. rewrite filter_app, filter_filter. cbn [filter fst].
  rewrite String.eqb_refl. cbn [negb]. rewrite app_nil_r. apply filter_ext. intro p. apply andb_diag.
Qed.

Lemma cache_of_set k0 k l cs : cache_of k0 (set_cache k l cs) = if k =? k0 then l else cache_of k0 cs.
Proof.
  unfold cache_of. induction cs as [|[k' l'] t IH]; cbn [set_cache find fst snd]; [destruct (k =? k0); reflexivity|].
  destruct (String.eqb_spec k' k) as [->|N]; cbn [find fst snd]; [destruct (k =? k0); reflexivity|].
  destruct (String.eqb_spec k' k0) as [<-|_]; [|exact IH].
  destruct (String.eqb_spec k k') as [E|_]; [destruct (N (eq_sym E)) | reflexivity].
Qed.

(* d[k] = v on an association list in insertion order.  set_cache and dict_set are this function at their value
   types, up to conversion, so what is proved of it here is used for both *)
Section ASet.
Context {V : Type}.
Fixpoint c17_aset (k : string) (v : V) (d : list (string * V)) : list (string * V) :=
  match d with
  | [] => [(k, v)]
  | (k', v') :: t => if k' =? k then (k, v) :: t else (k', v') :: c17_aset k v t
  end.

Lemma c17_aset_keys k v d x : In x (map fst (c17_aset k v d)) -> x = k \/ In x (map fst d).
Proof.
  induction d as [|[k' v'] t IH]; cbn [c17_aset map fst In]; [intros [E|[]]; left; symmetry; exact E|].
  destruct (String.eqb_spec k' k) as [->|_]; cbn [map fst In]; [tauto|].
  intros [E|H]; [tauto | destruct (IH H); tauto].
Qed.

Lemma c17_aset_nodup k v d : NoDup (map fst d) -> NoDup (map fst (c17_aset k v d)).
Proof.
  induction d as [|[k' v'] t IH]; cbn [c17_aset map fst]; [intros _; repeat constructor; intros []|].
  rewrite NoDup_cons_iff. intros [Hn Ht]. destruct (String.eqb_spec k' k) as [->|N]; cbn [map fst].
  - constructor; assumption.
  - constructor; [|exact (IH Ht)]. intro H. apply c17_aset_keys in H as [E|H]; [exact (N E) | exact (Hn H)].
Qed.
End ASet.

(* unique build keys, and unique commits in every LRU *)
Definition cs_wf (cs : caches) : Prop := NoDup (map fst cs) /\ forall k, lru_wf (cache_of k cs).
Definition cs_bounded (size : nat) (cs : caches) : Prop := forall k, (List.length (cache_of k cs) <= size)%nat.

(* the cell of commit c under build key k: its content, whether it is there, whether it is SUCCESSFUL *)
Definition lookup_ck (cs : caches) (c k : string) : option string := lru_lookup c (cache_of k cs).
Definition present (cs : caches) (c k : string) : Prop := lookup_ck cs c k <> None.
Definition greenb (cs : caches) (c k : string) : bool := ogreen (lookup_ck cs c k).

Lemma greenb_present cs c k : greenb cs c k = true -> present cs c k.
Proof. unfold greenb. intros G N. rewrite N in G. discriminate G. Qed.

Lemma cached_green_greenb cs c k : cached_green cs c k <-> greenb cs c k = true.
Proof.
  unfold cached_green, greenb, lookup_ck. destruct (lru_lookup c (cache_of k cs)) as [v|]; [|split; discriminate].
  cbn [ogreen]. unfold is_green. rewrite String.eqb_eq. split; congruence.
Qed.

Lemma held_present cs c k : held cs c k = true <-> present cs c k.
Proof.
  unfold held, present, lookup_ck. rewrite (existsb_eqb_In String.eqb String.eqb_eq). symmetry. apply lru_lookup_some.
Qed.

(* replacing the LRU of build key k *)
Lemma set_cache_wf cs k l : cs_wf cs -> lru_wf l -> cs_wf (set_cache k l cs).
Proof.
  intros [Wk W] Wl. split; [exact (c17_aset_nodup k l cs Wk)|].
  intro k0. rewrite cache_of_set. destruct (k =? k0); [exact Wl | apply W].
Qed.

Lemma set_cache_bounded size cs k l :
  (cs_bounded size cs -> (List.length l <= size)%nat) -> cs_bounded size cs -> cs_bounded size (set_cache k l cs).
Proof. intros Hl B k0. rewrite cache_of_set. destruct (k =? k0); [exact (Hl B) | apply B]. Qed.

(* the read at the start of get_build_status: the entry becomes the most recent, no cell changes *)
Lemma touch_spec cs c k : cs_wf cs -> let cs1 := set_cache k (snd (lru_get c (cache_of k cs))) cs in
  cs_wf cs1 /\ (forall size, cs_bounded size cs -> cs_bounded size cs1) /\
  (forall c0 k0, lookup_ck cs1 c0 k0 = lookup_ck cs c0 k0).
Proof.
  intros W. destruct (lru_get_spec c _ (proj2 W k)) as (W1 & L1 & Lk).
  split; [apply set_cache_wf; assumption|]. split.
  - intro size. apply set_cache_bounded. intro B. specialize (B k). lia.
  - intros c0 k0. unfold lookup_ck. rewrite cache_of_set. destruct (String.eqb_spec k k0) as [<-|_]; [apply Lk | reflexivity].
Qed.

(* one (guarded) write of state s for commit c under key k: the cells of other commits stay or are evicted, those of
   c under other keys stay, the one written is SUCCESSFUL afterwards if s is, or if it was and the write is guarded *)
Lemma write_spec g size cs k c s cs' : cs_wf cs -> upd cs k (store g size c s) = Ok cs' ->
  cs_wf cs' /\ (cs_bounded size cs -> cs_bounded size cs') /\
  (forall c0 k0, c0 <> c -> lookup_ck cs' c0 k0 = None \/ lookup_ck cs' c0 k0 = lookup_ck cs c0 k0) /\
  (forall k0, greenb cs' c k0 = if k =? k0 then g && greenb cs c k || is_green s else greenb cs c k0).
Proof.
  intros W. unfold upd. destruct (store g size c s (cache_of k cs)) as [l'|] eqn:E; [|discriminate]. intros [= <-].
  destruct (store_spec g size c s _ l' (proj2 W k) E) as (W' & L' & Lk & Oth).
  split; [apply set_cache_wf; assumption|]. split; [apply set_cache_bounded; intro B; apply L', B|]. split.
  - intros c0 k0 Hne. unfold lookup_ck. rewrite cache_of_set.
    destruct (String.eqb_spec k k0) as [<-|_]; [exact (Oth c0 Hne) | right; reflexivity].
  - intro k0. unfold greenb, lookup_ck. rewrite cache_of_set. destruct (String.eqb_spec k k0) as [<-|_]; [|reflexivity].
    rewrite Lk. destruct (g && ogreen (lru_lookup c (cache_of k cs))) eqn:G; [|reflexivity].
    apply andb_true_iff in G. apply G.
Qed.

Lemma upd_set_is_store cs k size c s : upd cs k (lru_set size c s) = upd cs k (store false size c s).
Proof. unfold upd. rewrite store_false_is_set. reflexivity. Qed.

Lemma write_total g size cs k c s : (1 <= size)%nat -> exists cs', upd cs k (store g size c s) = Ok cs'.
Proof. intro H. unfold upd. destruct (store_total g size c s (cache_of k cs) H) as [l' ->]. eexists; reflexivity. Qed.

(* get_commit_status's refresh loop writes a report (build key -> state) for commit c *)
Lemma refresh_spec keep size c : forall statuses cs cs', cs_wf cs -> refresh keep size c statuses cs = Ok cs' ->
  cs_wf cs' /\ (cs_bounded size cs -> cs_bounded size cs') /\
  (forall c0 k0, c0 <> c -> lookup_ck cs' c0 k0 = None \/ lookup_ck cs' c0 k0 = lookup_ck cs c0 k0) /\
  (forall k0, greenb cs c k0 = true -> (keep = true \/ forall s, In (k0, s) statuses -> is_green s = true) ->
              greenb cs' c k0 = true) /\
  (forall k0, greenb cs' c k0 = true -> greenb cs c k0 = true \/ exists s, In (k0, s) statuses /\ is_green s = true) /\
  (NoDup (map fst statuses) -> forall k0 s, In (k0, s) statuses -> is_green s = true -> greenb cs' c k0 = true).
Proof.
  induction statuses as [|[k1 s1] t IH]; intros cs cs' W; cbn [refresh].
  - intros [= <-]. split; [exact W|]. split; [tauto|]. split; [tauto|]. split; [tauto|]. split; [tauto|]. intros _ k0 s [].
  - destruct (upd cs k1 (store keep size c s1)) as [cs1|] eqn:E1; [|discriminate]. intro H.
    destruct (write_spec keep size cs k1 c s1 cs1 W E1) as (W1 & B1 & O1 & G1).
    destruct (IH cs1 cs' W1 H) as (W' & B' & O & S1 & S2 & S3).
    split; [exact W'|]. split; [intro B; apply B', B1, B|]. split; [|split; [|split]].
    + intros c0 k0 Hne. destruct (O c0 k0 Hne) as [N|E]; [left; exact N | rewrite E; exact (O1 c0 k0 Hne)].
    + intros k0 G Hor. apply S1; [|destruct Hor as [Hk|Hs]; [left; exact Hk | right; intros s Hs'; apply Hs; right; exact Hs']].
      rewrite G1. destruct (String.eqb_spec k1 k0) as [->|_]; [|exact G]. rewrite G.
      destruct Hor as [->|Hs]; [reflexivity | rewrite (Hs s1 (or_introl eq_refl)); apply orb_true_r].
    + intros k0 G. destruct (S2 k0 G) as [G'|(s & Hs & Gs)]; [|right; exists s; split; [right|]; assumption].
      rewrite G1 in G'. destruct (String.eqb_spec k1 k0) as [->|_]; [|left; exact G'].
      apply orb_true_iff in G' as [G'|G']; [left; apply andb_true_iff in G'; apply G'|].
      right. exists s1. split; [left; reflexivity | exact G'].
    + cbn [map fst]. rewrite NoDup_cons_iff. intros [Hn Hnd] k0 s [[= -> ->]|Hin] Gs; [|exact (S3 Hnd k0 s Hin Gs)].
      apply S1; [rewrite G1, String.eqb_refl, Gs; apply orb_true_r|].
      right. intros s' Hs'. destruct (Hn (in_map fst _ _ Hs')).
Qed.

Lemma refresh_total keep size c statuses : (1 <= size)%nat -> forall cs, exists cs', refresh keep size c statuses cs = Ok cs'.
Proof.
  intro S1. induction statuses as [|[k s] t IH]; intro cs; cbn [refresh]; [eexists; reflexivity|].
  destruct (write_total keep size cs k c s S1) as [cs1 ->]. apply IH.
Qed.

Definition guards_ok (g : cfg) : Prop :=
  guard_status g = true /\ guard_suite g = true /\ guard_bitbucket g = true /\
  hit_green_gh g = true /\ hit_green_bb g = true.

(* a GitHub report is a dict: its keys are unique *)
Definition op_wf (o : sop) : Prop :=
  match o with SPollGH _ _ (Some l) => NoDup (map fst l) | _ => True end.

Lemma report_nodup o : op_wf o -> NoDup (map fst (host_report o)).
Proof. destruct o as [| | |c k [l|]|c k [s|]]; cbn; intro H; try exact H; repeat constructor; intros []. Qed.

(* the pairs of commit c that a report shows SUCCESSFUL *)
Definition green_pairs (c : string) (report : list (string * string)) : list (string * string) :=
  map (fun e => (c, fst e)) (filter (fun e => is_green (snd e)) report).

Lemma green_pairs_In c report c0 k0 :
  In (c0, k0) (green_pairs c report) <-> c0 = c /\ exists s, In (k0, s) report /\ is_green s = true.
Proof.
  unfold green_pairs. rewrite in_map_iff. split.
  - intros [[k1 s1] [[= <- <-] H]]. apply filter_In in H. split; [reflexivity | exists s1; exact H].
  - intros [-> (s & H)]. exists (k0, s). split; [reflexivity | apply filter_In; exact H].
Qed.

(* the pairs seen SUCCESSFUL during the step (Spec: seen_green), told from the cache instead of G *)
Definition seen_m (cs : caches) (o : sop) : list (string * string) :=
  match event_of o, poll_of o with
  | Some (c, k, s), _ => green_pairs c [(k, s)]
  | None, Some (c, k) => if greenb cs c k then [] else green_pairs c (host_report o)
  | None, None => []
  end.

(* the only operation that can turn a held (c0, k0) red when get_commit_status does not keep green entries:
   a GitHub poll of the same commit under ANOTHER key that reaches the host while the host reports k0 not green *)
Definition safe_for (c0 k0 : string) (o : sop) : Prop :=
  match o with
  | SPollGH c k (Some l) => c <> c0 \/ k = k0 \/ (forall s, In (k0, s) l -> is_green s = true)
  | _ => True
  end.

(* no GitHub poll reaching the host: safe for every cell.  The monitor theorems ask for this, since the monitor follows
   all the cells at once, where the sticky theorems follow one *)
Definition gh_poll_free (o : sop) : Prop := match o with SPollGH _ _ (Some _) => False | _ => True end.

Lemma gh_poll_free_safe o c k : gh_poll_free o -> safe_for c k o.
Proof. destruct o as [| | |c' k' [l|]|]; cbn; tauto. Qed.

(* with the guards of the handlers, an event is one guarded write ... *)
Lemma step_event g size cs o c k s : guards_ok g -> event_of o = Some (c, k, s) ->
  step g size cs o = ev (upd cs k (store true size c s)).
Proof.
  intros (Gs & Gu & Gb & _) E. destruct o; try discriminate E; injection E as <- <- <-; cbn [step];
    rewrite ?Gs, ?Gu, ?Gb; reflexivity.
Qed.

(* ... and a poll answers from a SUCCESSFUL cell or else writes what the host reports for the commit and answers
   from that; Bitbucket reports the asked key only and its client does not look at the cell again *)
Definition poll_keep (g : cfg) (o : sop) : bool := match o with SPollGH _ _ _ => keep_green g | _ => false end.

Lemma hit_greenb cs c k : hit true (lookup_ck cs c k) = if greenb cs c k then Some "SUCCESSFUL" else None.
Proof.
  unfold greenb, hit. destruct (lookup_ck cs c k) as [v|]; [|reflexivity]. cbn [ogreen].
  destruct (is_green v) eqn:G; [|reflexivity]. apply String.eqb_eq in G. rewrite G. reflexivity.
Qed.

Lemma step_poll g size cs o c k : guards_ok g -> poll_of o = Some (c, k) ->
  step g size cs o =
  let cs1 := set_cache k (snd (lru_get c (cache_of k cs))) cs in
  if greenb cs c k then Ok (cs1, Some "SUCCESSFUL")
  else match refresh (poll_keep g o) size c (host_report o) cs1 with
       | Ok cs2 => Ok (cs2, Some (host_now o))
       | KeyError => KeyError
       end.
Proof.
  intros (_ & _ & _ & Hg & Hb) Po.
  destruct o as [| | |c' k' rep|c' k' rep]; try discriminate Po; injection Po as -> ->; cbn [step].
  - (* GitHub *)
    rewrite (lru_get_eq c (cache_of k cs)), Hg. fold (lookup_ck cs c k). rewrite hit_greenb.
    destruct (greenb cs c k); [reflexivity|]. destruct rep; reflexivity.
  - (* Bitbucket: the set of the asked key is the unguarded refresh of a one-entry report *)
    rewrite (lru_get_eq c (cache_of k cs)), Hb. fold (lookup_ck cs c k). rewrite hit_greenb.
    destruct (greenb cs c k); [reflexivity|]. destruct rep as [r|]; [|reflexivity].
    rewrite upd_set_is_store. unfold host_now. cbn [poll_of host_report assoc refresh poll_keep].
    rewrite String.eqb_refl. destruct (upd _ k (store false size c r)); reflexivity.
Qed.

(* in a poll that reaches the host, the cells of the polled commit that are SUCCESSFUL and that the operation is safe
   for are written SUCCESSFUL or kept by the guard (the polled cell itself is not SUCCESSFUL) *)
Lemma poll_report_green g cs o c k k0 : poll_of o = Some (c, k) -> greenb cs c k = false -> greenb cs c k0 = true ->
  keep_green g = true \/ safe_for c k0 o ->
  poll_keep g o = true \/ forall s, In (k0, s) (host_report o) -> is_green s = true.
Proof.
  intros Po Gck G Hor. assert (Hk : k <> k0) by congruence.
  destruct o as [| | |c' k' [l|]|c' k' [r|]]; try discriminate Po; injection Po as -> ->; cbn [poll_keep host_report].
  - destruct Hor as [Keep|Safe]; [left; exact Keep|]. cbn [safe_for] in Safe.
    destruct Safe as [Hc|[Hk'|Green]]; [destruct (Hc eq_refl) | destruct (Hk Hk') | right; exact Green].
  - right. intros s [].
  - right. intros s [[= E _]|[]]. destruct (Hk E).
  - right. intros s [].
Qed.

(* every operation writes a report for one commit c, with or without the guard, into a cache cs1 whose cells are
   those of cs (cs itself, or cs after the read of a poll) *)
Lemma report_written size cs cs1 c keep report cs' :
  cs_wf cs1 -> (cs_bounded size cs -> cs_bounded size cs1) ->
  (forall c0 k0, lookup_ck cs1 c0 k0 = lookup_ck cs c0 k0) ->
  refresh keep size c report cs1 = Ok cs' ->
  cs_wf cs' /\ (cs_bounded size cs -> cs_bounded size cs') /\
  (forall c0 k0, greenb cs c0 k0 = true -> present cs' c0 k0 ->
     (c0 = c -> keep = true \/ forall s, In (k0, s) report -> is_green s = true) -> greenb cs' c0 k0 = true) /\
  (forall c0 k0, greenb cs' c0 k0 = true -> greenb cs c0 k0 = true \/ In (c0, k0) (green_pairs c report)) /\
  (NoDup (map fst report) -> forall c0 k0, In (c0, k0) (green_pairs c report) -> greenb cs' c0 k0 = true).
Proof.
  intros W1 B1 Lk1 R.
  assert (Gr1 : forall c0 k0, greenb cs1 c0 k0 = greenb cs c0 k0) by (intros; unfold greenb; rewrite Lk1; reflexivity).
  destruct (refresh_spec keep size c report cs1 cs' W1 R) as (W' & B' & O & S1 & S2 & S3).
  assert (Far : forall c0 k0, c0 <> c -> present cs' c0 k0 -> greenb cs' c0 k0 = greenb cs c0 k0).
  { intros c0 k0 Hne P. unfold greenb. destruct (O c0 k0 Hne) as [N|E]; [destruct (P N) | rewrite E, Lk1; reflexivity]. }
  split; [exact W'|]. split; [intro B; apply B', B1, B|]. split; [|split].
  - intros c0 k0 G P Hor. destruct (string_dec c0 c) as [->|Hne]; [|rewrite (Far c0 k0 Hne P); exact G].
    apply S1; [rewrite Gr1; exact G | exact (Hor eq_refl)].
  - intros c0 k0 G. destruct (string_dec c0 c) as [->|Hne].
    + destruct (S2 k0 G) as [G'|Hs]; [left; rewrite <- Gr1; exact G' | right; apply green_pairs_In; split; [reflexivity | exact Hs]].
    + left. rewrite <- (Far c0 k0 Hne (greenb_present _ _ _ G)). exact G.
  - intros Hnd c0 k0 Hin. apply green_pairs_In in Hin as [-> (s & Hs & Gs)]. exact (S3 Hnd k0 s Hs Gs).
Qed.

(* one operation on the cells: a SUCCESSFUL cell still held afterwards is still SUCCESSFUL, if get_commit_status keeps
   green entries or the operation is safe for the cell; the cells SUCCESSFUL afterwards are those that were and those
   seen SUCCESSFUL during the step *)
Theorem step_spec g size cs o cs' a :
  guards_ok g -> cs_wf cs -> step g size cs o = Ok (cs', a) ->
  cs_wf cs' /\ (cs_bounded size cs -> cs_bounded size cs') /\
  (forall c0 k0, greenb cs c0 k0 = true -> present cs' c0 k0 ->
                 (keep_green g = true \/ safe_for c0 k0 o) -> greenb cs' c0 k0 = true) /\
  (forall c0 k0, greenb cs' c0 k0 = true -> greenb cs c0 k0 = true \/ In (c0, k0) (seen_m cs o)) /\
  (op_wf o -> forall c0 k0, In (c0, k0) (seen_m cs o) -> greenb cs' c0 k0 = true).
Proof.
  intros Gk W. unfold seen_m.
  destruct (event_of o) as [[[c k] s]|] eqn:Ev.
  - rewrite (step_event g size cs o c k s Gk Ev). unfold ev.
    destruct (upd cs k (store true size c s)) as [cs1|] eqn:E; [|discriminate]. intros [= <- <-].
    destruct (report_written size cs cs c true [(k, s)] cs1 W (fun B => B) (fun _ _ => eq_refl)) as (W' & B' & P1 & P2 & P3);
      [cbn [refresh]; rewrite E; reflexivity|].
    split; [exact W'|]. split; [exact B'|]. split; [|split; [exact P2|]].
    + intros c0 k0 G P _. apply P1; [exact G | exact P | left; reflexivity].
    + intros _. apply P3. repeat constructor. intros [].
  - destruct (poll_of o) as [[c k]|] eqn:Po; [|destruct o; discriminate].
    rewrite (step_poll g size cs o c k Gk Po). cbv zeta.
    destruct (touch_spec cs c k W) as (W1 & B1 & Lk1). set (cs1 := set_cache k _ cs) in *.
    destruct (greenb cs c k) eqn:Gck.
    + intros [= <- <-].
      assert (Gr1 : forall c0 k0, greenb cs1 c0 k0 = greenb cs c0 k0) by (intros; unfold greenb; rewrite Lk1; reflexivity).
      split; [exact W1|]. split; [apply B1|]. split; [|split].
      * intros c0 k0 G _ _. rewrite Gr1. exact G.
      * intros c0 k0 G. left. rewrite <- Gr1. exact G.
      * intros _ c0 k0 [].
    + destruct (refresh (poll_keep g o) size c (host_report o) cs1) as [cs2|] eqn:R; [|discriminate]. intros [= <- <-].
      destruct (report_written size cs cs1 c _ _ cs2 W1 (B1 size) Lk1 R) as (W' & B' & P1 & P2 & P3).
      split; [exact W'|]. split; [exact B'|]. split; [|split; [exact P2|]].
      * intros c0 k0 G P Hor. apply P1; [exact G | exact P|]. intros ->.
        exact (poll_report_green g cs o c k k0 Po Gck G Hor).
      * intro Wo. apply P3, report_nodup, Wo.
Qed.

Lemma step_answer g size cs o cs' a c k : guards_ok g -> step g size cs o = Ok (cs', a) -> poll_of o = Some (c, k) ->
  a = Some (if greenb cs c k then "SUCCESSFUL" else host_now o).
Proof.
  intros Gk E Po. rewrite (step_poll g size cs o c k Gk Po) in E. cbv zeta in E.
  destruct (greenb cs c k); [injection E as _ <-; reflexivity|].
  destruct (refresh _ size c _ _); [injection E as _ <-; reflexivity | discriminate E].
Qed.

Lemma step_total g size cs o : (1 <= size)%nat -> exists st, step g size cs o = Ok st.
Proof.
  intro S1. destruct o as [c k s|c s|c k s|c k rep|c k rep]; cbn [step].
  - destruct (write_total (guard_status g) size cs k c s S1) as [cs' ->]. eexists; reflexivity.
  - destruct (write_total (guard_suite g) size cs actions_key c s S1) as [cs' ->]. eexists; reflexivity.
  - destruct (write_total (guard_bitbucket g) size cs k c s S1) as [cs' ->]. eexists; reflexivity.
  - destruct (lru_get c (cache_of k cs)) as [cur l1]. destruct (hit (hit_green_gh g) cur); [eexists; reflexivity|].
    destruct rep as [l|]; [|eexists; reflexivity].
    destruct (refresh_total (keep_green g) size c l S1 (set_cache k l1 cs)) as [cs2 ->]. eexists; reflexivity.
  - destruct (lru_get c (cache_of k cs)) as [cur l1]. destruct (hit (hit_green_bb g) cur); [eexists; reflexivity|].
    destruct rep as [s|]; [|eexists; reflexivity]. rewrite upd_set_is_store.
    destruct (write_total false size (set_cache k l1 cs) k c s S1) as [cs2 ->]. eexists; reflexivity.
Qed.

Lemma run_seq_total : forall g size ops, (1 <= size)%nat -> forall cs, exists tr, run_seq g size cs ops = Ok tr.
Proof.
  intros g size ops S1. induction ops as [|o t IH]; intro cs; cbn [run_seq]; [eexists; reflexivity|].
  destruct (step_total g size cs o S1) as [[cs' a] ->]. destruct (IH cs') as [tr ->]. eexists; reflexivity.
Qed.

(* with size 0 the first write raises *)
Example run_seq_size0 : run_seq code_cfg 0 [] [SEvStatus "c0" "k" "FAILED"] = KeyError.
Proof. vm_compute. reflexivity. Qed.

Lemma run_seq_cons g size cs o t tr : run_seq g size cs (o :: t) = Ok tr ->
  exists cs' a tr', step g size cs o = Ok (cs', a) /\ run_seq g size cs' t = Ok tr' /\ tr = (cs', a) :: tr'.
Proof.
  cbn [run_seq]. destruct (step g size cs o) as [[cs' a]|]; [|discriminate].
  destruct (run_seq g size cs' t) as [tr'|] eqn:Et; [|discriminate]. intros [= <-]. exists cs', a, tr'.
  repeat split. exact Et.
Qed.

Lemma run_seq_invariant : forall g size, guards_ok g -> forall ops cs tr,
  cs_wf cs -> cs_bounded size cs -> run_seq g size cs ops = Ok tr ->
  Forall (fun st => cs_wf (fst st) /\ cs_bounded size (fst st)) tr.
Proof.
  intros g size Gk. induction ops as [|o t IH]; intros cs tr W B H; [injection H as <-; constructor|].
  apply run_seq_cons in H as (cs' & a & tr' & E & Et & ->).
  destruct (step_spec g size cs o cs' a Gk W E) as (W' & B' & _).
  constructor; [split; [exact W' | exact (B' B)] | exact (IH cs' tr' W' (B' B) Et)].
Qed.

(* C17_sticky *)
Definition sticky_for (g : cfg) (restrict : string -> string -> sop -> Prop) : Prop :=
  forall size cs ops tr c k,
    cs_wf cs -> cached_green cs c k -> Forall (restrict c k) ops ->
    run_seq g size cs ops = Ok tr ->
    Forall (fun a => a = Some "SUCCESSFUL") (answers_while_held c k ops tr).
Definition sticky_full (g : cfg) : Prop := sticky_for g (fun _ _ _ => True).
Definition sticky_partial (g : cfg) : Prop := sticky_for g safe_for.

(* the operations a SUCCESSFUL (c, k) survives: all of them when get_commit_status keeps green entries *)
Theorem sticky_run g : guards_ok g -> sticky_for g (fun c k o => keep_green g = true \/ safe_for c k o).
Proof.
  intros Gk size cs ops. revert cs. induction ops as [|o t IH]; intros cs tr c k W G Hs H; [injection H as <-; constructor|].
  apply run_seq_cons in H as (cs' & a & tr' & E & Et & ->). apply Forall_cons_iff in Hs as [Ho Hs].
  apply cached_green_greenb in G.
  destruct (step_spec g size cs o cs' a Gk W E) as (W' & _ & P1 & _).
  cbn [answers_while_held]. apply Forall_app. split.
  - unfold polls. destruct (poll_of o) as [[c' k']|] eqn:Po; [|constructor].
    destruct (String.eqb_spec c' c) as [->|_]; [|constructor]. destruct (String.eqb_spec k' k) as [->|_]; constructor; [|constructor].
    rewrite (step_answer g size cs o cs' a c k Gk E Po), G. reflexivity.
  - destruct (held cs' c k) eqn:Hd; [|constructor]. apply held_present in Hd.
    apply (IH cs' tr' c k W'); [|exact Hs | exact Et]. apply cached_green_greenb, P1; assumption.
Qed.

Lemma sticky_for_weaken g (R R' : string -> string -> sop -> Prop) :
  (forall c k o, R' c k o -> R c k o) -> sticky_for g R -> sticky_for g R'.
Proof. intros Hi H size cs ops tr c k W G Hs. apply (H size cs ops tr c k W G). exact (Forall_impl _ (Hi c k) Hs). Qed.

Theorem sticky_full_holds g : guards_ok g -> keep_green g = true -> sticky_full g.
Proof. intros Gk Hk. apply (sticky_for_weaken g _ _ (fun _ _ _ _ => or_introl Hk) (sticky_run g Gk)). Qed.

Theorem sticky_partial_holds g : guards_ok g -> sticky_partial g.
Proof. intros Gk. apply (sticky_for_weaken g _ _ (fun _ _ _ H => or_intror H) (sticky_run g Gk)). Qed.

Lemma assoc_In k l s : assoc k l = Some s -> In (k, s) l.
Proof.
  induction l as [|[k' v] t IH]; [discriminate|]. cbn [assoc].
  destruct (String.eqb_spec k' k) as [->|_]; [intros [= ->]; left; reflexivity | right; apply IH; assumption].
Qed.

(* "answered SUCCESSFUL" implies "cached SUCCESSFUL" right after *)
Theorem answered_green_is_cached g size cs o cs' a c k :
  guards_ok g -> cs_wf cs -> op_wf o -> step g size cs o = Ok (cs', a) ->
  poll_of o = Some (c, k) -> a = Some "SUCCESSFUL" -> cached_green cs' c k.
Proof.
  intros Gk W Wo E Po Ha. apply cached_green_greenb.
  destruct (step_spec g size cs o cs' a Gk W E) as (_ & _ & _ & _ & P3).
  rewrite (step_answer g size cs o cs' a c k Gk E Po) in Ha.
  destruct (greenb cs c k) eqn:G.
  { (* answered from the cache, whose cells the read leaves as they are *)
    rewrite (step_poll g size cs o c k Gk Po), G in E. injection E as <- _.
    unfold greenb. rewrite (proj2 (proj2 (touch_spec cs c k W))). exact G. }
  injection Ha as Ha. apply (P3 Wo). unfold seen_m. rewrite Po, G.
  assert (Ev : event_of o = None) by (destruct o; try discriminate Po; reflexivity). rewrite Ev.
  apply green_pairs_In. split; [reflexivity|]. exists "SUCCESSFUL". split; [|reflexivity].
  unfold host_now in Ha. rewrite Po in Ha. destruct (assoc k (host_report o)) as [s|] eqn:Es; [|discriminate Ha].
  subst s. exact (assoc_In _ _ _ Es).
Qed.

(* F3: get_commit_status does not keep green entries => a poll under another key downgrades the verdict *)
Definition f3_cache : caches := [("A", [("c", "SUCCESSFUL")])].
Definition f3_report : option (list (string * string)) := Some [("A", "FAILED"); ("B", "FAILED")].
Definition f3_ops : list sop := [SPollGH "c" "B" f3_report; SPollGH "c" "A" f3_report].
Definition f3_trace : list (caches * option string) :=
  [([("A", [("c", "FAILED")]); ("B", [("c", "FAILED")])], Some "FAILED");
   ([("A", [("c", "FAILED")]); ("B", [("c", "FAILED")])], Some "FAILED")].

Lemma f3_cache_wf : cs_wf f3_cache.
Proof.
  split; [repeat constructor; intros []|]. intro k. unfold f3_cache, cache_of. cbn [find fst].
  destruct ("A" =? k); cbn [snd]; [repeat constructor; intros [] | constructor].
Qed.

Theorem sticky_refuted g : keep_green g = false -> ~ sticky_full g.
Proof.
  intros Hk Hf. specialize (Hf 2%nat f3_cache f3_ops f3_trace "c" "A" f3_cache_wf eq_refl).
  (* the polls read hit_green_gh and keep_green only, and the trace is the same with either way of answering from the
     cache: the second poll finds FAILED there *)
  assert (E : run_seq g 2 f3_cache f3_ops = Ok f3_trace).
  { cbn [run_seq f3_ops step]. rewrite Hk. destruct (hit_green_gh g); reflexivity. }
  specialize (Hf (proj2 (Forall_forall _ _) (fun _ _ => I)) E). apply Forall_inv in Hf. discriminate Hf.
Qed.

Example f3_from_empty :
  run_seq (mkCfg true true true true true false) 2 []
    [SEvStatus "c" "B" "INPROGRESS"; SEvStatus "c" "A" "SUCCESSFUL"; SPollGH "c" "A" f3_report;
     SPollGH "c" "B" f3_report; SPollGH "c" "A" f3_report]
  = Ok [([("B", [("c", "INPROGRESS")])], None);
        ([("B", [("c", "INPROGRESS")]); ("A", [("c", "SUCCESSFUL")])], None);
        ([("B", [("c", "INPROGRESS")]); ("A", [("c", "SUCCESSFUL")])], Some "SUCCESSFUL");
        ([("B", [("c", "FAILED")]); ("A", [("c", "FAILED")])], Some "FAILED");
        ([("B", [("c", "FAILED")]); ("A", [("c", "FAILED")])], Some "FAILED")].
Proof. vm_compute. reflexivity. Qed.

(* the same run with the repaired get_commit_status *)
Example f3_repaired :
  run_seq (mkCfg true true true true true true) 2 []
    [SEvStatus "c" "B" "INPROGRESS"; SEvStatus "c" "A" "SUCCESSFUL"; SPollGH "c" "A" f3_report;
     SPollGH "c" "B" f3_report; SPollGH "c" "A" f3_report]
  = Ok [([("B", [("c", "INPROGRESS")])], None);
        ([("B", [("c", "INPROGRESS")]); ("A", [("c", "SUCCESSFUL")])], None);
        ([("B", [("c", "INPROGRESS")]); ("A", [("c", "SUCCESSFUL")])], Some "SUCCESSFUL");
        ([("B", [("c", "FAILED")]); ("A", [("c", "SUCCESSFUL")])], Some "FAILED");
        ([("B", [("c", "FAILED")]); ("A", [("c", "SUCCESSFUL")])], Some "SUCCESSFUL")].
Proof. vm_compute. reflexivity. Qed.

(* one statement for the code as it is: full when get_commit_status keeps green entries, otherwise
   refuted + the partial theorem *)
Definition sticky_verdict (g : cfg) : Prop :=
  if keep_green g then sticky_full g else (~ sticky_full g /\ sticky_partial g).

Theorem sticky_verdict_holds g : guards_ok g -> sticky_verdict g.
Proof.
  intro Gk. unfold sticky_verdict. destruct (keep_green g) eqn:Hk.
  - apply sticky_full_holds; assumption.
  - split; [apply sticky_refuted; exact Hk | apply sticky_partial_holds; exact Gk].
Qed.

Lemma code_guards_ok : guards_ok code_cfg.
Proof. repeat split. Qed.

(* the executable monitor of the specification accepts the runs of the model from consistent book-keeping, when
   get_commit_status keeps green entries or no GitHub poll reaches the host (monitor_refuted: not otherwise) *)
Lemma memp_In p G : memp p G = true <-> In p G.
Proof.
  apply (existsb_eqb_In pair_eqb). intros [a1 a2] [b1 b2]. unfold pair_eqb. cbn [fst snd].
  rewrite andb_true_iff, !String.eqb_eq. split; [intros [-> ->]; reflexivity | intros [= -> ->]; split; reflexivity].
Qed.

Lemma cached_after_held o cs a c k : cached_after (obs_of o (cs, a)) (c, k) = held cs c k.
Proof.
  unfold cached_after, obs_of, held, cache_of. cbn [o_cached fst snd].
  induction cs as [|[k' l] t IH]; cbn [map find fst snd]; [reflexivity|].
  destruct (k' =? k); [reflexivity | exact IH].
Qed.

Lemma cache_of_in cs e : NoDup (map fst cs) -> In e cs -> cache_of (fst e) cs = snd e.
Proof.
  unfold cache_of. induction cs as [|[k l] t IH]; intros Hnd Hin; [destruct Hin|].
  cbn [map fst] in Hnd. apply NoDup_cons_iff in Hnd as [Hnotin Hnd]. cbn [find fst].
  destruct Hin as [<-|Hin]; [cbn [fst snd]; rewrite String.eqb_refl; reflexivity|].
  destruct (String.eqb_spec k (fst e)) as [->|_]; [|apply IH; assumption].
  destruct (Hnotin (in_map fst _ _ Hin)).
Qed.

Lemma bound_check_ok size o cs a : cs_wf cs -> cs_bounded size cs ->
  existsb (fun e => (size <? List.length (snd e))%nat) (o_cached (obs_of o (cs, a))) = false.
Proof.
  intros [Wk _] B. apply existsb_false_iff. intros e He. apply Nat.ltb_ge.
  unfold obs_of in He. cbn [o_cached fst] in He. apply in_map_iff in He as [e0 [<- He0]]. cbn [snd].
  unfold lru_keys. rewrite map_length, <- (cache_of_in cs e0 Wk He0). apply B.
Qed.

Definition c17_inv (cs : caches) (G : list (string * string)) : Prop :=
  forall c k, memp (c, k) G = greenb cs c k.

Lemma seen_green_seen_m cs G o : c17_inv cs G -> seen_green G o = seen_m cs o.
Proof.
  intro I. unfold seen_green, seen_m, green_pairs. destruct (event_of o) as [[[c k] s]|].
  - (* by conversion: the specification's green is the model's is_green *)
    change (green s) with (is_green s). cbn [filter snd]. destruct (is_green s); reflexivity.
  - destruct (poll_of o) as [[c k]|]; [|reflexivity]. rewrite (I c k). reflexivity.
Qed.

Theorem monitor_run g : guards_ok g -> forall ops size cs tr G i,
  cs_wf cs -> cs_bounded size cs -> c17_inv cs G -> Forall op_wf ops ->
  Forall (fun o => keep_green g = true \/ gh_poll_free o) ops ->
  run_seq g size cs ops = Ok tr -> monitor size i G (observe ops tr) = Pass.
Proof.
  intro Gk. induction ops as [|o t IH]; intros size cs tr G i W B I Wf Hs H; [injection H as <-; reflexivity|].
  apply run_seq_cons in H as (cs' & a & tr' & E & Et & ->).
  apply Forall_cons_iff in Wf as [Wo Wt]. apply Forall_cons_iff in Hs as [Ho Hs].
  destruct (step_spec g size cs o cs' a Gk W E) as (W' & B' & P1 & P2 & P3).
  cbn [observe monitor]. rewrite (bound_check_ok size o cs' a W' (B' B)).
  change (o_op (obs_of o (cs', a))) with o. change (o_answer (obs_of o (cs', a))) with a.
  assert (Hnext : monitor size (S i) (filter (cached_after (obs_of o (cs', a))) (G ++ seen_green G o)) (observe t tr') = Pass).
  { apply (IH size cs' tr'); [exact W' | exact (B' B) | | exact Wt | exact Hs | exact Et].
    intros c0 k0. apply eq_true_iff_eq. rewrite memp_In, filter_In, cached_after_held, held_present, in_app_iff.
    rewrite <- memp_In, (I c0 k0), (seen_green_seen_m cs G o I). split.
    - intros [[G0|Hin] P]; [|exact (P3 Wo c0 k0 Hin)]. apply P1; [exact G0 | exact P|].
      destruct Ho as [Hk|Hf]; [left; exact Hk | right; apply gh_poll_free_safe, Hf].
    - intro G'. split; [apply P2; exact G' | apply greenb_present; exact G']. }
  destruct (poll_of o) as [[c k]|] eqn:Po; [|exact Hnext].
  rewrite (I c k), (step_answer g size cs o cs' a c k Gk E Po).
  destruct (greenb cs c k); cbn [opt_eqb]; rewrite String.eqb_refl; exact Hnext.
Qed.

Definition monitor_full (g : cfg) : Prop :=
  forall size ops tr, Forall op_wf ops -> run_seq g size [] ops = Ok tr -> spec_trace_ok size (observe ops tr) = Pass.

Corollary monitor_from_empty g : guards_ok g -> forall size ops tr,
  Forall op_wf ops -> Forall (fun o => keep_green g = true \/ gh_poll_free o) ops -> run_seq g size [] ops = Ok tr ->
  spec_trace_ok size (observe ops tr) = Pass.
Proof.
  intros Gk size ops tr.
  exact (monitor_run g Gk ops size [] tr [] 0%nat (conj (NoDup_nil _) (fun _ => NoDup_nil _)) (fun _ => Nat.le_0_l size)
           (fun _ _ => eq_refl)).
Qed.

Theorem monitor_full_holds g : guards_ok g -> keep_green g = true -> monitor_full g.
Proof.
  intros Gk Hk size ops tr Wf. apply (monitor_from_empty g Gk size ops tr Wf).
  apply Forall_forall. intros o _. left. exact Hk.
Qed.

(* the same polls, after the event that fills the empty cache with f3_cache *)
Definition f3_seq : list sop := SEvStatus "c" "A" "SUCCESSFUL" :: f3_ops.

Theorem monitor_refuted g : guards_ok g -> keep_green g = false -> ~ monitor_full g.
Proof.
  intros (G1 & G2 & G3 & G4 & G5) Hk Hf. destruct g as [b1 b2 b3 b4 b5 b6]. cbn in G1, G2, G3, G4, G5, Hk. subst.
  assert (Wf : Forall op_wf f3_seq).
  { repeat constructor; cbn; try (intros [E'|[]]; discriminate E'); intros []. }
  specialize (Hf 2%nat f3_seq ((f3_cache, None) :: f3_trace) Wf eq_refl). vm_compute in Hf. discriminate Hf.
Qed.

Definition monitor_verdict (g : cfg) : Prop := if keep_green g then monitor_full g else ~ monitor_full g.
Theorem monitor_verdict_holds g : guards_ok g -> monitor_verdict g.
Proof.
  intro Gk. unfold monitor_verdict. destruct (keep_green g) eqn:Hk;
    [apply monitor_full_holds | apply monitor_refuted]; assumption.
Qed.

(* the reports the model builds from the host's JSON are dicts: unique keys *)
Lemma dict_of_nodup l : forall acc, NoDup (map fst acc) -> NoDup (map fst (dict_of l acc)).
Proof.
  induction l as [|[k v] t IH]; intros acc H; cbn [dict_of]; [exact H|]. exact (IH _ (c17_aset_nodup k v acc H)).
Qed.

Lemma eval_op_wf : forall o so, eval_op o = Ok so -> op_wf so.
Proof.
  intros o so. destruct o as [c k raw|c rs|c k s|c k [[sts rs]|]|c k rep]; cbn [eval_op]; try (intros [= <-]; exact I).
  - destruct (status_state raw); [intros [= <-]; exact I | discriminate].
  - destruct (CI.state rs); [intros [= <-]; exact I | discriminate].
  - destruct (eval_statuses sts) as [l|]; [|discriminate]. destruct (CI.state rs) as [a|]; [|discriminate].
    intros [= <-]. exact (c17_aset_nodup actions_key a _ (dict_of_nodup l [] (NoDup_nil _))).
Qed.

(* non-vacuity of the monitor theorem: a run with eviction, a green verdict kept, a fresh answer *)
Example monitor_example :
  let ops := [SEvBitbucket "c0" "k" "SUCCESSFUL"; SPollBB "c0" "k" (Some "FAILED"); SEvBitbucket "c1" "k" "INPROGRESS";
              SPollBB "c0" "k" (Some "FAILED"); SPollBB "c1" "k" None] in
  match run_seq code_cfg 1 [] ops with
  | Ok tr => map snd tr = [None; Some "SUCCESSFUL"; None; Some "FAILED"; Some "NOTSTARTED"]
             /\ spec_trace_ok 1 (observe ops tr) = Pass
  | KeyError => False
  end.
Proof. vm_compute. split; reflexivity. Qed.

(* the reduction behind the enumeration of the cache protocol: states matter only as SUCCESSFUL / not.
   For every renaming f of the states that keeps SUCCESSFUL apart (is_green (f s) = is_green s), running the
   renamed operations from the renamed cache gives the renamed caches, and answers that are renamed or
   literally equal: the same commits in the same order, green exactly where it was green. *)
Section Reduction.
Variable f : string -> string.
Hypothesis f_green : forall s, is_green (f s) = is_green s.

Definition c17_ml (l : lru) : lru := map (fun p => (fst p, f (snd p))) l.
Definition c17_mc (cs : caches) : caches := map (fun e => (fst e, c17_ml (snd e))) cs.
Definition c17_mr (l : list (string * string)) : list (string * string) := map (fun p => (fst p, f (snd p))) l.
Definition c17_mo (o : sop) : sop :=
  match o with
  | SEvStatus c k s => SEvStatus c k (f s)
  | SEvSuite c s => SEvSuite c (f s)
  | SEvBitbucket c k s => SEvBitbucket c k (f s)
  | SPollGH c k rep => SPollGH c k (option_map c17_mr rep)
  | SPollBB c k rep => SPollBB c k (option_map f rep)
  end.
Definition c17_sim (a b : option string) : Prop :=
  match a, b with
  | Some x, Some y => is_green x = is_green y
  | None, None => True
  | _, _ => False
  end.

Lemma ml_lookup c l : lru_lookup c (c17_ml l) = option_map f (lru_lookup c l).
Proof. unfold lru_lookup, c17_ml. rewrite find_map. destruct (find _ l); reflexivity. Qed.

Lemma ml_remove c l : lru_remove c (c17_ml l) = c17_ml (lru_remove c l).
Proof. exact (filter_map_swap (fun p => (fst p, f (snd p))) (fun p => negb (fst p =? c)) l). Qed.

Lemma ml_get c l : lru_get c (c17_ml l) = (option_map f (fst (lru_get c l)), c17_ml (snd (lru_get c l))).
Proof.
  unfold lru_get. rewrite ml_lookup. destruct (lru_lookup c l) as [v|]; cbn [option_map fst snd]; [|reflexivity].
  rewrite ml_remove. unfold c17_ml. rewrite map_app. reflexivity.
Qed.

Definition c17_mres {A} (h : A -> A) (r : result A) : result A := match r with Ok a => Ok (h a) | KeyError => KeyError end.

Lemma ml_set size c s l : lru_set size c (f s) (c17_ml l) = c17_mres c17_ml (lru_set size c s l).
Proof.
  unfold lru_set. rewrite ml_lookup. destruct (lru_lookup c l) as [v|]; cbn [option_map c17_mres].
  - rewrite ml_remove. unfold c17_ml. rewrite map_app. reflexivity.
  - destruct size as [|m]; [reflexivity|]. cbn [c17_mres]. unfold c17_ml. rewrite map_app, map_length, skipn_map. reflexivity.
Qed.

Lemma ml_store guard size c s l : store guard size c (f s) (c17_ml l) = c17_mres c17_ml (store guard size c s l).
Proof.
  rewrite !store_eq, ml_lookup, ml_get. cbn [snd].
  assert (E : ogreen (option_map f (lru_lookup c l)) = ogreen (lru_lookup c l))
    by (destruct (lru_lookup c l); [apply f_green | reflexivity]).
  rewrite E. destruct (guard && ogreen (lru_lookup c l)); [reflexivity | apply ml_set].
Qed.

Lemma mc_cache_of k cs : cache_of k (c17_mc cs) = c17_ml (cache_of k cs).
Proof. unfold cache_of, c17_mc. rewrite find_map. destruct (find _ cs); reflexivity. Qed.

Lemma mc_set_cache k l cs : set_cache k (c17_ml l) (c17_mc cs) = c17_mc (set_cache k l cs).
Proof.
  unfold c17_mc. induction cs as [|[k' l'] t IH]; cbn [map set_cache fst snd]; [reflexivity|].
  destruct (k' =? k); cbn [map fst snd]; [reflexivity | rewrite IH; reflexivity].
Qed.

Lemma mc_upd_store guard size c s k cs :
  upd (c17_mc cs) k (store guard size c (f s)) = c17_mres c17_mc (upd cs k (store guard size c s)).
Proof.
  unfold upd. rewrite mc_cache_of, ml_store. destruct (store guard size c s (cache_of k cs)) as [l|]; cbn [c17_mres]; [|reflexivity].
  rewrite mc_set_cache. reflexivity.
Qed.

Lemma mc_refresh keep size c l : forall cs,
  refresh keep size c (c17_mr l) (c17_mc cs) = c17_mres c17_mc (refresh keep size c l cs).
Proof.
  induction l as [|[k s] t IH]; intro cs; cbn [c17_mr map refresh fst snd]; [reflexivity|].
  rewrite mc_upd_store. destruct (upd cs k (store keep size c s)) as [cs1|]; cbn [c17_mres]; [|reflexivity]. apply IH.
Qed.

Lemma mr_assoc k l : assoc k (c17_mr l) = option_map f (assoc k l).
Proof.
  unfold c17_mr. induction l as [|[k' v] t IH]; cbn [map assoc fst snd]; [reflexivity|].
  destruct (k' =? k); [reflexivity | exact IH].
Qed.

Lemma hit_map b cur : hit b (option_map f cur) = option_map f (hit b cur).
Proof.
  unfold hit. destruct cur as [v|]; cbn [option_map]; [|reflexivity]. destruct b; [|reflexivity].
  rewrite f_green. destruct (is_green v); reflexivity.
Qed.

Definition c17_step_rel (r1 r2 : result (caches * option string)) : Prop :=
  match r1, r2 with
  | Ok (cs1, a1), Ok (cs2, a2) => cs2 = c17_mc cs1 /\ c17_sim a1 a2
  | KeyError, KeyError => True
  | _, _ => False
  end.

Lemma ev_rel r : c17_step_rel (ev r) (ev (c17_mres c17_mc r)).
Proof. destruct r; cbn; auto. Qed.

Lemma step_reduction g size cs o : c17_step_rel (step g size cs o) (step g size (c17_mc cs) (c17_mo o)).
Proof.
  destruct o as [c k s|c s|c k s|c k rep|c k rep]; cbn [step c17_mo].
  - rewrite mc_upd_store. apply ev_rel.
  - rewrite mc_upd_store. apply ev_rel.
  - rewrite mc_upd_store. apply ev_rel.
  - rewrite mc_cache_of, ml_get. destruct (lru_get c (cache_of k cs)) as [cur l1]. cbn [fst snd].
    rewrite hit_map, mc_set_cache. destruct (hit (hit_green_gh g) cur) as [v|]; cbn [option_map c17_step_rel].
    + split; [reflexivity | cbn; symmetry; apply f_green].
    + destruct rep as [l|]; cbn [option_map c17_step_rel]; [|split; reflexivity].
      rewrite mc_refresh. destruct (refresh (keep_green g) size c l (set_cache k l1 cs)) as [cs2|]; cbn [c17_mres c17_step_rel]; [|exact I].
      split; [reflexivity|]. rewrite mr_assoc. destruct (assoc k l) as [s|]; cbn; [symmetry; apply f_green | reflexivity].
  - rewrite mc_cache_of, ml_get. destruct (lru_get c (cache_of k cs)) as [cur l1]. cbn [fst snd].
    rewrite hit_map, mc_set_cache. destruct (hit (hit_green_bb g) cur) as [v|]; cbn [option_map c17_step_rel].
    + split; [reflexivity | cbn; symmetry; apply f_green].
    + destruct rep as [s|]; cbn [option_map c17_step_rel]; [|split; reflexivity].
      rewrite !upd_set_is_store, mc_upd_store. destruct (upd (set_cache k l1 cs) k (store false size c s)) as [cs2|]; cbn [c17_mres c17_step_rel]; [|exact I].
      split; [reflexivity | cbn; symmetry; apply f_green].
Qed.

Fixpoint c17_trace_rel (t1 t2 : list (caches * option string)) : Prop :=
  match t1, t2 with
  | [], [] => True
  | (cs1, a1) :: r1, (cs2, a2) :: r2 => cs2 = c17_mc cs1 /\ c17_sim a1 a2 /\ c17_trace_rel r1 r2
  | _, _ => False
  end.

Theorem run_seq_reduction g size ops : forall cs,
  match run_seq g size cs ops, run_seq g size (c17_mc cs) (map c17_mo ops) with
  | Ok t1, Ok t2 => c17_trace_rel t1 t2
  | KeyError, KeyError => True
  | _, _ => False
  end.
Proof.
  induction ops as [|o t IH]; intro cs; cbn [map run_seq]; [exact I|].
  pose proof (step_reduction g size cs o) as H. unfold c17_step_rel in H.
  destruct (step g size cs o) as [[cs1 a1]|]; destruct (step g size (c17_mc cs) (c17_mo o)) as [[cs2 a2]|]; try contradiction; [|exact I].
  destruct H as [-> Ha]. specialize (IH cs1).
  destruct (run_seq g size cs1 t) as [t1|]; destruct (run_seq g size (c17_mc cs1) (map c17_mo t)) as [t2|]; try contradiction; [|exact I].
  cbn [c17_trace_rel]. repeat split; assumption.
Qed.
End Reduction.

(* the renaming used by the enumeration (C17_two_valued): every state that is not SUCCESSFUL becomes FAILED *)
Definition two_valued (s : string) : string := if is_green s then s else "FAILED".
