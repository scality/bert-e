(* Proofs for C09: the model of BranchCascade (Model/Cascade.v) against the specification written from
   the statement (Spec/C09Spec.v), for every number of branches and tags and every discovery order.
   Properties/C09.v imports this file for the theorems below, and for C09_full, c09_agrees, keys and somes,
   which its statements mention.

   The chain.  c09_add_all_result: add_branch over any discovery order of a set p fails exactly for two
   stabilization branches of one line, and otherwise builds the cascade that [Shape p dst] describes (sorted by
   release line, each field holding the branch of p that belongs there), with the attributes of new branch
   objects ([Fresh]); such a cascade is unique (c09_shape_unique), hence the discovery order is irrelevant
   (c09_add_all_perm).  c09_update_all_closed and c09_update_major_closed ("closed": as one expression,
   without the loop): update_versions over the tags and _update_major_versions are maps over the slots
   ([map_slots]) that keep Shape and change attributes only, to the values [Attrs] lists (c09_attrs_final).
   c09_build_to_finalize puts these together: build is a rejection, or finalize of that cascade.  c09_dep_spec,
   c09_finalize_orphan, c09_finalize_hf and c09_finalize_nonhf compare the three rejections and the two kinds
   of destination with the specification, the loop of finalize being read off the sorted cascade split at the
   slot of the destination; c09_full_proof assembles them.

   Between line_lt and the cascade stand three lemmas that say how compare_queues and
   DevelopmentBranch.__lt__, which no theorem here needs, relate to the order of the statement. *)
From Coq Require Import List String Ascii Bool ZArith NArith Lia Permutation Sorted.
Require Import BertE.Base.Lists BertE.Generated.Facts_C09 BertE.Model.Cascade BertE.Spec.C09Spec.
Import ListNotations.
Open Scope string_scope.
Open Scope list_scope.
Open Scope Z_scope.

Lemma StronglySorted_map_filter {A B} (R : B -> B -> Prop) (g : A -> B) f l :
  StronglySorted R (map g l) -> StronglySorted R (map g (filter f l)).
Proof.
  induction l as [|a t IH]; cbn [map filter]; intro S; [constructor|].
  apply StronglySorted_inv in S as [St Ha]. destruct (f a); [|exact (IH St)].
  constructor; [exact (IH St)|]. rewrite Forall_forall in *. intros y Hy. apply Ha.
  apply in_map_iff in Hy as (x & <- & Hx). apply in_map. apply filter_In in Hx. apply Hx.
Qed.

Lemma StronglySorted_app_inv {A} (R : A -> A -> Prop) l1 a l2 :
  StronglySorted R (l1 ++ a :: l2) -> Forall (fun x => R x a) l1 /\ Forall (R a) l2.
Proof.
  induction l1 as [|b t IH]; cbn [app]; intro S; apply StronglySorted_inv in S as [St Hb].
  - split; [constructor | exact Hb].
  - destruct (IH St) as [F1 F2]. split; [|exact F2]. constructor; [|exact F1].
    rewrite Forall_forall in Hb. apply Hb, in_elt.
Qed.

Lemma opt_eq_iff {A} (o1 o2 : option A) : (forall x, o1 = Some x <-> o2 = Some x) -> o1 = o2.
Proof.
  intro H. destruct o1 as [x|]; [symmetry; apply H; reflexivity|].
  destruct o2 as [y|]; [apply H; reflexivity | reflexivity].
Qed.

Lemma Permutation_flat_map_app {A B} (f g : A -> list B) l :
  Permutation (flat_map (fun x => f x ++ g x) l) (flat_map f l ++ flat_map g l).
Proof.
  induction l as [|a t IH]; cbn [flat_map app]; [reflexivity|].
  rewrite IH, <- !app_assoc. apply Permutation_app_head. rewrite !app_assoc. apply Permutation_app_tail, Permutation_app_comm.
Qed.

Lemma flat_map_single {A B} (f : A -> list B) l1 e l2 :
  (forall x, In x l1 \/ In x l2 -> f x = []) -> flat_map f (l1 ++ e :: l2) = f e.
Proof.
  intro H. rewrite flat_map_app. cbn [flat_map].
  rewrite !(proj2 (flat_map_nil_iff _ _)), app_nil_r; [reflexivity | |]; intros x Hx; apply H; auto.
Qed.

(* Insertion sort with a total, transitive, antisymmetric boolean order: the result only depends on the
   set of elements. *)
Section Sorting.
  Variable A : Type.
  Variable le : A -> A -> bool.
  Hypothesis le_total : forall a b, le a b = true \/ le b a = true.
  Hypothesis le_trans : forall a b c, le a b = true -> le b c = true -> le a c = true.
  Hypothesis le_antisym : forall a b, le a b = true -> le b a = true -> a = b.

  Fixpoint ins (x : A) (l : list A) : list A :=
    match l with
    | [] => [x]
    | h :: t => if le x h then x :: l else h :: ins x t
    end.
  Definition isort (l : list A) : list A := fold_right ins [] l.

  Definition leP (a b : A) : Prop := le a b = true.

  Lemma c09_ins_perm x l : Permutation (ins x l) (x :: l).
  Proof.
    induction l as [|h t IH]; cbn [ins]; [reflexivity|].
    destruct (le x h); [reflexivity|].
    rewrite IH. apply perm_swap.
  Qed.

  Lemma c09_isort_perm l : Permutation (isort l) l.
  Proof.
    induction l as [|h t IH]; cbn [isort fold_right]; [reflexivity|].
    fold (isort t). rewrite c09_ins_perm. constructor. exact IH.
  Qed.

  Lemma c09_ins_sorted x l : StronglySorted leP l -> StronglySorted leP (ins x l).
  Proof.
    induction l as [|h t IH]; intro S; cbn [ins].
    - constructor; constructor.
    - pose proof S as S'. apply StronglySorted_inv in S' as [St Hh].
      destruct (le x h) eqn:E.
      + constructor; [exact S|]. constructor; [exact E|].
        rewrite Forall_forall in *. intros y Hy. apply le_trans with h; [exact E | apply Hh; exact Hy].
      + constructor; [apply IH; exact St|].
        assert (Hhx : le h x = true) by (destruct (le_total x h) as [C|C]; [congruence | exact C]).
        rewrite Forall_forall in *. intros y Hy.
        apply (Permutation_in _ (c09_ins_perm x t)) in Hy. destruct Hy as [<-|Hy]; [exact Hhx | apply Hh; exact Hy].
  Qed.

  Lemma c09_isort_sorted l : StronglySorted leP (isort l).
  Proof.
    induction l as [|h t IH]; cbn [isort fold_right]; [constructor|].
    apply c09_ins_sorted. exact IH.
  Qed.

  Lemma c09_sorted_perm_eq l1 : forall l2,
    StronglySorted leP l1 -> StronglySorted leP l2 -> Permutation l1 l2 -> l1 = l2.
  Proof.
    induction l1 as [|a t1 IH]; intros l2 S1 S2 P.
    - apply Permutation_nil in P. subst; reflexivity.
    - destruct l2 as [|b t2]; [apply Permutation_sym, Permutation_nil in P; discriminate P|].
      apply StronglySorted_inv in S1 as [St1 Ha], S2 as [St2 Hb].
      (* by antisymmetry the heads coincide *)
      assert (a = b) as ->.
      { rewrite Forall_forall in Ha, Hb.
        assert (In a (b :: t2)) as Hab by (apply (Permutation_in _ P); left; reflexivity).
        assert (In b (a :: t1)) as Hba by (apply (Permutation_in _ (Permutation_sym P)); left; reflexivity).
        destruct Hab as [->|Hab]; [reflexivity|]. destruct Hba as [->|Hba]; [reflexivity|].
        apply le_antisym; [apply Ha; exact Hba | apply Hb; exact Hab]. }
      f_equal. apply IH; [exact St1 | exact St2 | apply Permutation_cons_inv with b; exact P].
  Qed.

  Lemma c09_isort_perm_eq l1 l2 : Permutation l1 l2 -> isort l1 = isort l2.
  Proof.
    intro P. apply c09_sorted_perm_eq; try apply c09_isort_sorted.
    rewrite !c09_isort_perm. exact P.
  Qed.

  Lemma c09_isort_id l : StronglySorted leP l -> isort l = l.
  Proof.
    intro S. apply c09_sorted_perm_eq; [apply c09_isort_sorted | exact S | apply c09_isort_perm].
  Qed.

  Lemma c09_isort_filter (f : A -> bool) l : isort (filter f l) = filter f (isort l).
  Proof.
    apply c09_sorted_perm_eq; [apply c09_isort_sorted | |].
    - rewrite <- (map_id (filter f _)). apply StronglySorted_map_filter. rewrite map_id. apply c09_isort_sorted.
    - rewrite c09_isort_perm. apply Permutation_filter. symmetry. apply c09_isort_perm.
  Qed.
End Sorting.

Lemma c09_ascii_compare_refl a : Ascii.compare a a = Eq.
Proof. apply N.compare_refl. Qed.

Lemma c09_ascii_compare_lt_trans a b c :
  Ascii.compare a b = Lt -> Ascii.compare b c = Lt -> Ascii.compare a c = Lt.
Proof. unfold Ascii.compare. rewrite !N.compare_lt_iff. apply N.lt_trans. Qed.

Lemma c09_string_compare_refl s : String.compare s s = Eq.
Proof. induction s as [|a s IH]; cbn; [reflexivity|]. rewrite c09_ascii_compare_refl. exact IH. Qed.

Lemma c09_string_compare_lt_trans a : forall b c,
  String.compare a b = Lt -> String.compare b c = Lt -> String.compare a c = Lt.
Proof.
  induction a as [|x a IH]; intros [|y b] [|z c]; cbn; try congruence.
  destruct (Ascii.compare x y) eqn:Exy; try discriminate;
  destruct (Ascii.compare y z) eqn:Eyz; try discriminate; intros H1 H2.
  - apply Ascii.compare_eq_iff in Exy, Eyz. subst. rewrite c09_ascii_compare_refl. eapply IH; eassumption.
  - apply Ascii.compare_eq_iff in Exy. subst. rewrite Eyz. reflexivity.
  - apply Ascii.compare_eq_iff in Eyz. subst. rewrite Exy. reflexivity.
  - rewrite (c09_ascii_compare_lt_trans _ _ _ Exy Eyz). reflexivity.
Qed.

Lemma c09_str_leb_trans a b c : String.leb a b = true -> String.leb b c = true -> String.leb a c = true.
Proof.
  unfold String.leb.
  destruct (String.compare a b) eqn:Eab; try discriminate;
  destruct (String.compare b c) eqn:Ebc; try discriminate; intros _ _.
  - apply String.compare_eq_iff in Eab, Ebc. subst. rewrite c09_string_compare_refl. reflexivity.
  - apply String.compare_eq_iff in Eab. subst. rewrite Ebc. reflexivity.
  - apply String.compare_eq_iff in Ebc. subst. rewrite Eab. reflexivity.
  - rewrite (c09_string_compare_lt_trans _ _ _ Eab Ebc). reflexivity.
Qed.

(* sort_names is [isort] at String.leb, by conversion *)
Lemma c09_sort_names_perm l1 l2 : Permutation l1 l2 -> sort_names l1 = sort_names l2.
Proof.
  exact (c09_isort_perm_eq string String.leb String.leb_total c09_str_leb_trans String.leb_antisym l1 l2).
Qed.

Definition llt (a b : key) : Prop := line_lt a b = true.

Lemma c09_line_lt_irrefl a : line_lt a a = false.
Proof. destruct a as [x [y|]]; cbn; rewrite !Z.ltb_irrefl, ?andb_false_r; reflexivity. Qed.

Lemma c09_line_lt_trans a b c : line_lt a b = true -> line_lt b c = true -> line_lt a c = true.
Proof.
  destruct a as [x1 y1], b as [x2 y2], c as [x3 y3]; cbn [line_lt]. intros H G.
  apply orb_true_iff in H as [H|H]; apply orb_true_iff in G as [G|G].
  - apply Z.ltb_lt in H, G. rewrite (proj2 (Z.ltb_lt _ _) (Z.lt_trans _ _ _ H G)). reflexivity.
  - apply andb_true_iff in G as [Gx _]. apply Z.eqb_eq in Gx. subst x3. rewrite H. reflexivity.
  - apply andb_true_iff in H as [Hx _]. apply Z.eqb_eq in Hx. subst x2. rewrite G. reflexivity.
  - apply andb_true_iff in H as [Hx H]. apply andb_true_iff in G as [Gx G]. apply Z.eqb_eq in Hx, Gx. subst x2 x3.
    rewrite Z.eqb_refl. cbn [andb]. apply orb_true_iff. right.
    destruct y1, y2, y3; try discriminate; try reflexivity.
    apply Z.ltb_lt in H, G. apply Z.ltb_lt. eapply Z.lt_trans; eassumption.
Qed.

Lemma c09_line_total a b : line_lt a b = true \/ a = b \/ line_lt b a = true.
Proof.
  destruct a as [x1 y1], b as [x2 y2]; cbn [line_lt].
  destruct (Z.lt_trichotomy x1 x2) as [H|[->|H]]; [apply Z.ltb_lt in H; rewrite H; auto | | apply Z.ltb_lt in H; rewrite H; auto].
  rewrite Z.ltb_irrefl, Z.eqb_refl. cbn [orb andb]. destruct y1 as [m1|], y2 as [m2|]; auto.
  destruct (Z.lt_trichotomy m1 m2) as [H|[->|H]]; [apply Z.ltb_lt in H | | apply Z.ltb_lt in H]; auto.
Qed.

Lemma c09_line_lt_asym a b : line_lt a b = true -> line_lt b a = false.
Proof.
  intro H. destruct (line_lt b a) eqn:E; [|reflexivity].
  pose proof (c09_line_lt_trans _ _ _ H E) as C. rewrite c09_line_lt_irrefl in C. discriminate C.
Qed.

Lemma c09_line_le_iff a b : line_le a b = true <-> line_lt a b = true \/ a = b.
Proof.
  unfold line_le. split.
  - intro H. apply negb_true_iff in H. destruct (c09_line_total a b) as [G|[G|G]]; auto. congruence.
  - intros [H| ->]; [rewrite (c09_line_lt_asym _ _ H) | rewrite c09_line_lt_irrefl]; reflexivity.
Qed.

Lemma c09_line_le_refl a : line_le a a = true.
Proof. apply c09_line_le_iff. right. reflexivity. Qed.

Lemma c09_line_le_total a b : line_le a b = true \/ line_le b a = true.
Proof.
  rewrite !c09_line_le_iff. destruct (c09_line_total a b) as [H|[H|H]]; auto.
Qed.

Lemma c09_line_le_trans a b c : line_le a b = true -> line_le b c = true -> line_le a c = true.
Proof.
  rewrite !c09_line_le_iff. intros [H1| ->] [H2| ->]; auto. left. eapply c09_line_lt_trans; eassumption.
Qed.

Lemma c09_line_le_antisym a b : line_le a b = true -> line_le b a = true -> a = b.
Proof.
  rewrite !c09_line_le_iff. intros [H1| ->] [H2|H2]; auto.
  pose proof (c09_line_lt_trans _ _ _ H1 H2) as C. rewrite c09_line_lt_irrefl in C. discriminate C.
Qed.

(* sort_lines is [isort] at line_le, by conversion *)
Lemma c09_sort_lines_isort l : sort_lines l = isort key line_le l.
Proof. reflexivity. Qed.

Lemma c09_llt_sorted_nodup l : StronglySorted llt l -> NoDup l.
Proof.
  induction 1 as [|a t St IH Ha]; constructor; [|exact IH].
  intro Hin. rewrite Forall_forall in Ha. specialize (Ha a Hin). unfold llt in Ha.
  rewrite c09_line_lt_irrefl in Ha. discriminate Ha.
Qed.

Lemma c09_llt_sorted_le l : StronglySorted llt l -> StronglySorted (leP key line_le) l.
Proof.
  induction 1 as [|a t St IH Ha]; constructor; [exact IH|].
  rewrite Forall_forall in *. intros y Hy. unfold leP. apply c09_line_le_iff. left. apply Ha; exact Hy.
Qed.

Lemma c09_llt_sorted_ext l1 l2 :
  StronglySorted llt l1 -> StronglySorted llt l2 -> (forall k, In k l1 <-> In k l2) -> l1 = l2.
Proof.
  intros S1 S2 E. apply (c09_sorted_perm_eq key line_le c09_line_le_antisym); try apply c09_llt_sorted_le; try assumption.
  apply NoDup_Permutation; [apply c09_llt_sorted_nodup; exact S1 | apply c09_llt_sorted_nodup; exact S2 | exact E].
Qed.

(* compare_branches has the sign of the (x, y) order: the code sorts release lines as the statement says *)
Lemma c09_compare_branches_lt a b : (compare_branches a b <? 0) = line_lt a b.
Proof.
  destruct a as [x1 [y1|]], b as [x2 [y2|]]; cbn [compare_branches line_lt];
  destruct (Z.eqb_spec x1 x2) as [->|N]; rewrite ?Z.ltb_irrefl; cbn [orb andb];
  try (destruct (Z.ltb_spec x1 x2); destruct (Z.ltb_spec (x1 - x2) 0); try lia; reflexivity);
  try reflexivity.
  destruct (Z.ltb_spec y1 y2); destruct (Z.ltb_spec (y1 - y2) 0); try lia; reflexivity.
Qed.

Lemma c09_optZ_eqb_eq a b : optZ_eqb a b = true <-> a = b.
Proof.
  destruct a, b; cbn; try (split; [discriminate | discriminate || congruence]); try tauto.
  rewrite Z.eqb_eq. split; congruence.
Qed.

Lemma c09_key_eqb_eq a b : key_eqb a b = true <-> a = b.
Proof.
  destruct a as [x1 y1], b as [x2 y2]. unfold key_eqb. cbn [fst snd].
  rewrite andb_true_iff, Z.eqb_eq, c09_optZ_eqb_eq. split; [intros [-> ->]; reflexivity | intro H; inversion H; auto].
Qed.

Lemma c09_key_eqb_refl a : key_eqb a a = true.
Proof. apply c09_key_eqb_eq. reflexivity. Qed.

Lemma c09_key_eqb_neq a b : a <> b -> key_eqb a b = false.
Proof. intro N. destruct (key_eqb a b) eqn:E; [apply c09_key_eqb_eq in E; contradiction | reflexivity]. Qed.

Lemma c09_key_eq_dec (a b : key) : {a = b} + {a <> b}.
Proof. destruct (key_eqb a b) eqn:E; [left; apply c09_key_eqb_eq; exact E | right; intro H; apply c09_key_eqb_eq in H; congruence]. Qed.

(* the three orderings of branches.py agree: DevelopmentBranch.__lt__ is the order of the statement, and
   compare_queues only differs from compare_branches by putting a stabilization before its development branch *)
Lemma c09_dev_lt_line_lt a b : dev_lt a b = line_lt a b.
Proof.
  destruct a as [x1 [y1|]], b as [x2 [y2|]]; cbn [dev_lt line_lt];
  destruct (Z.eqb_spec x1 x2) as [->|N]; cbn [negb andb]; rewrite ?Z.ltb_irrefl, ?orb_false_r, ?orb_false_l; reflexivity.
Qed.

Lemma c09_compare_queues_branches k1 l1 k2 l2 :
  k1 <> k2 -> compare_queues (k1, l1) (k2, l2) = compare_branches k1 k2.
Proof. intro N. unfold compare_queues. rewrite (c09_key_eqb_neq _ _ N). reflexivity. Qed.

Lemma c09_compare_queues_same_line k :
  compare_queues (k, 3%nat) (k, 2%nat) = -1 /\ compare_queues (k, 2%nat) (k, 3%nat) = 1.
Proof. unfold compare_queues. rewrite c09_key_eqb_refl. split; reflexivity. Qed.

Definition keys (c : cascade) : list key := map fst c.
Definition ksorted (c : cascade) : Prop := StronglySorted llt (keys c).

Lemma c09_lookup_some_in k c s : lookup k c = Some s -> In (k, s) c.
Proof.
  induction c as [|[k' s'] t IH]; cbn [lookup]; [discriminate|].
  destruct (key_eqb k k') eqn:E.
  - intro H. injection H as <-. apply c09_key_eqb_eq in E. subst. left; reflexivity.
  - intro H. right. apply IH; exact H.
Qed.

Lemma c09_lookup_none k c : lookup k c = None -> ~ In k (keys c).
Proof.
  induction c as [|[k' s'] t IH]; cbn [lookup keys map fst]; [intros _ []|].
  destruct (key_eqb k k') eqn:E; [discriminate|].
  intros H [G|G]; [subst; rewrite c09_key_eqb_refl in E; discriminate E | exact (IH H G)].
Qed.

Lemma c09_in_keys k s (c : cascade) : In (k, s) c -> In k (keys c).
Proof. apply (in_map fst). Qed.

Lemma c09_keys_in k (c : cascade) : In k (keys c) -> exists s, In (k, s) c.
Proof. intro H. apply in_map_iff in H as [[k' s] [E H]]. cbn in E. subst. exists s; exact H. Qed.

Lemma c09_in_lookup k s c : NoDup (keys c) -> In (k, s) c -> lookup k c = Some s.
Proof.
  induction c as [|[k' s'] t IH]; cbn [lookup keys map fst]; [intros _ []|].
  intros ND [G|G].
  - injection G as -> ->. rewrite c09_key_eqb_refl. reflexivity.
  - apply NoDup_cons_iff in ND as [Hn ND'].
    destruct (key_eqb k k') eqn:E; [|apply IH; assumption].
    apply c09_key_eqb_eq in E. subst. destruct Hn. eapply c09_in_keys; exact G.
Qed.

Lemma c09_assoc_eq (c1 : cascade) : forall c2,
  keys c1 = keys c2 -> (forall k s1 s2, In (k, s1) c1 -> In (k, s2) c2 -> s1 = s2) -> c1 = c2.
Proof.
  induction c1 as [|[k s] t IH]; intros [|[k' s'] t'] Hk Hs; try discriminate Hk; [reflexivity|].
  cbn in Hk. injection Hk as <- Hk.
  rewrite (Hs k s s'); [|left; reflexivity|left; reflexivity]. f_equal.
  apply IH; [exact Hk|]. intros k0 s1 s2 H1 H2. apply (Hs k0); right; assumption.
Qed.

Definition map_slots (g : key -> slot -> slot) (c : cascade) : cascade :=
  map (fun e => (fst e, g (fst e) (snd e))) c.

Lemma c09_keys_map_slots g c : keys (map_slots g c) = keys c.
Proof. unfold keys, map_slots. rewrite map_map. reflexivity. Qed.

Lemma c09_in_map_slots g c k s' : In (k, s') (map_slots g c) <-> exists s, In (k, s) c /\ s' = g k s.
Proof.
  unfold map_slots. rewrite in_map_iff. split.
  - intros [[k0 s0] [E H]]. cbn in E. injection E as <- <-. exists s0. auto.
  - intros [s [H ->]]. exists (k, s). auto.
Qed.

Lemma c09_set_slot_map_slots k f c :
  set_slot k f c = map_slots (fun k' s => if key_eqb k k' then f s else s) c.
Proof.
  unfold set_slot, map_slots. apply map_ext. intros [k' s]. cbn [fst snd]. destruct (key_eqb k k'); reflexivity.
Qed.

Lemma c09_in_insert_sorted k s c e : In e (insert_sorted k s c) <-> e = (k, s) \/ In e c.
Proof.
  induction c as [|[k' s'] t IH]; cbn [insert_sorted In]; [split; intros [H|H]; auto|].
  destruct (compare_branches k k' <? 0); cbn [In]; [split; intros [H|H]; auto|]. split.
  - intros [H|H]; [auto | apply IH in H as [H|H]; auto].
  - intros [H|[H|H]]; [right; apply IH; left; exact H | left; exact H | right; apply IH; right; exact H].
Qed.

Lemma c09_insert_sorted_sorted k s c : ksorted c -> ~ In k (keys c) -> ksorted (insert_sorted k s c).
Proof.
  unfold ksorted. induction c as [|[k' s'] t IH]; cbn [insert_sorted keys map fst]; intros S Hn.
  - constructor; constructor.
  - pose proof S as S'. apply StronglySorted_inv in S' as [St Hk']. rewrite c09_compare_branches_lt.
    destruct (line_lt k k') eqn:E; cbn [keys map fst].
    + constructor; [exact S|]. constructor; [exact E|].
      rewrite Forall_forall in *. intros y Hy. eapply c09_line_lt_trans; [exact E | apply Hk'; exact Hy].
    + assert (Hlt : line_lt k' k = true).
      { destruct (c09_line_total k k') as [G|[G|G]]; [congruence | subst; exfalso; apply Hn; left; reflexivity | exact G]. }
      constructor; [apply IH; [exact St | intro G; apply Hn; right; exact G]|].
      rewrite Forall_forall in *. intros y Hy. apply c09_keys_in in Hy as [sy Hy].
      apply c09_in_insert_sorted in Hy as [Hy|Hy]; [injection Hy as -> _; exact Hlt|].
      apply Hk'. eapply c09_in_keys; exact Hy.
Qed.

Lemma c09_split_at (c : cascade) k0 s0 : ksorted c -> In (k0, s0) c ->
  exists l1 l2, c = l1 ++ (k0, s0) :: l2 /\ StronglySorted llt (keys l1 ++ k0 :: keys l2) /\
                forall k s, In (k, s) l1 \/ In (k, s) l2 -> In (k, s) c /\ k <> k0.
Proof.
  intros S Hs0. destruct (in_split _ _ Hs0) as (l1 & l2 & Ec). exists l1, l2. split; [exact Ec|].
  unfold ksorted, keys in S. rewrite Ec, map_app in S. split; [exact S|].
  destruct (StronglySorted_app_inv _ _ _ _ S) as (F1 & F2). rewrite Forall_forall in F1, F2.
  intros k s H. split; [rewrite Ec; apply in_app_iff; destruct H; [left | right; right]; assumption|].
  intros ->. assert (L : llt k0 k0) by (destruct H as [H|H]; [apply F1 | apply F2]; exact (in_map fst _ _ H)).
  unfold llt in L. rewrite c09_line_lt_irrefl in L. discriminate L.
Qed.

(* the dict after "if key not in self._cascade: insert an empty slot" *)
Definition ensure (k : key) (c : cascade) : cascade :=
  match lookup k c with Some _ => c | None => insert_sorted k empty_slot c end.

Lemma c09_in_ensure k c e : In e (ensure k c) <-> In e c \/ (lookup k c = None /\ e = (k, empty_slot)).
Proof.
  unfold ensure. destruct (lookup k c); [|rewrite c09_in_insert_sorted]; intuition discriminate.
Qed.

Lemma c09_ensure_sorted k c : ksorted c -> ksorted (ensure k c).
Proof.
  intro S. unfold ensure. destruct (lookup k c) eqn:L; [exact S|].
  apply c09_insert_sorted_sorted; [exact S | apply c09_lookup_none; exact L].
Qed.

Lemma c09_lookup_ensure k c : ksorted c ->
  lookup k (ensure k c) = Some (match lookup k c with Some s => s | None => empty_slot end).
Proof.
  intro S. apply c09_in_lookup; [apply c09_llt_sorted_nodup, c09_ensure_sorted, S|].
  apply c09_in_ensure. destruct (lookup k c) eqn:L; [left; apply c09_lookup_some_in; exact L | right; auto].
Qed.

Definition slot_get (cl : bclass) (s : slot) : option branch :=
  match cl with
  | CDev => option_map fst (s_dev s)
  | CStab => s_stab s
  | CHotfix => option_map fst (s_hf s)
  end.

Lemma c09_slot_get_put cl b s :
  slot_get cl (put b s) = if bclass_eqb cl (class_of b) then Some b else slot_get cl s.
Proof. destruct cl, b; reflexivity. Qed.

Lemma c09_occupied_get cl s : occupied cl s = match slot_get cl s with Some _ => true | None => false end.
Proof. destruct cl; cbn; [destruct (s_dev s) | | destruct (s_hf s)]; reflexivity. Qed.

Lemma c09_bclass_eqb_eq a b : bclass_eqb a b = true <-> a = b.
Proof. destruct a, b; cbn; split; congruence. Qed.

Lemma c09_two_stabs_iff bs :
  two_stabs bs = true <-> exists x y z1 z2, In (Stab x y z1) bs /\ In (Stab x y z2) bs /\ z1 <> z2.
Proof.
  unfold two_stabs. rewrite existsb_exists. split.
  - intros (a & Ha & H). apply existsb_exists in H as (b & Hb & H).
    destruct a as [| x1 y1 z1 |], b as [| x2 y2 z2 |]; try discriminate H.
    apply andb_true_iff in H as [H Hz]. apply andb_true_iff in H as [Hx Hy].
    apply Z.eqb_eq in Hx, Hy. subst. apply negb_true_iff, Z.eqb_neq in Hz.
    exists x2, y2, z1, z2. auto.
  - intros (x & y & z1 & z2 & H1 & H2 & N). exists (Stab x y z1). split; [exact H1|].
    apply existsb_exists. exists (Stab x y z2). split; [exact H2|].
    rewrite !Z.eqb_refl. cbn. apply negb_true_iff, Z.eqb_neq. exact N.
Qed.

Lemma c09_two_stabs_incl l1 l2 : incl l1 l2 -> two_stabs l1 = true -> two_stabs l2 = true.
Proof.
  rewrite !c09_two_stabs_iff. intros I (x & y & z1 & z2 & H1 & H2 & N). exists x, y, z1, z2. auto.
Qed.

Lemma c09_two_stabs_perm l1 l2 : Permutation l1 l2 -> two_stabs l1 = two_stabs l2.
Proof.
  intro P. apply eq_true_iff_eq.
  split; apply c09_two_stabs_incl; intros b; apply Permutation_in; [|symmetry]; exact P.
Qed.

(* the hotfix filter of add_branch lets b through *)
Definition kept (dst : option branch) (b : branch) : Prop := hotfix_discarded b dst = false.

(* b is the branch of p that belongs under release line k in the field of class cl *)
Definition placed (p : list branch) (dst : option branch) (k : key) (cl : bclass) (b : branch) : Prop :=
  In b p /\ kept dst b /\ key_of b = k /\ class_of b = cl.

Record Shape (p : list branch) (dst : option branch) (c : cascade) : Prop := mkShape {
  sh_sorted : ksorted c;
  sh_keys : forall k, In k (keys c) <-> exists cl b, placed p dst k cl b;
  sh_slot : forall k s cl b, In (k, s) c -> (slot_get cl s = Some b <-> placed p dst k cl b) }.

Definition fresh_slot (s : slot) : Prop :=
  s = mkSlot (option_map (fun b => (b, dev_default)) (slot_get CDev s)) (slot_get CStab s)
             (option_map (fun b => (b, default_hfrev)) (slot_get CHotfix s)).
Definition Fresh (c : cascade) : Prop := forall k s, In (k, s) c -> fresh_slot s.

Lemma c09_fresh_slot_eq s1 s2 :
  fresh_slot s1 -> fresh_slot s2 -> (forall cl, slot_get cl s1 = slot_get cl s2) -> s1 = s2.
Proof. intros F1 F2 E. rewrite F1, F2, !E. reflexivity. Qed.

Lemma c09_fresh_put b s : fresh_slot s -> fresh_slot (put b s).
Proof.
  destruct s as [d t h]. unfold fresh_slot. cbn. intros [= Fd Fh]. destruct b; cbn; congruence.
Qed.

Lemma c09_shape_placed p p' dst c :
  (forall k cl b, placed p dst k cl b <-> placed p' dst k cl b) -> Shape p dst c -> Shape p' dst c.
Proof.
  intros P [S K L]. constructor; [exact S | |].
  - intro k. rewrite K. split; intros (cl & b & H); exists cl, b; apply P; exact H.
  - intros k s cl b Hin. rewrite (L k s cl b Hin). apply P.
Qed.

Lemma c09_shape_perm p p' dst c : Permutation p p' -> Shape p dst c -> Shape p' dst c.
Proof. intro P. apply c09_shape_placed. intros k cl b. unfold placed. rewrite P. reflexivity. Qed.

Lemma c09_shape_nodup p dst c : Shape p dst c -> NoDup (keys c).
Proof. intros [S _ _]. apply c09_llt_sorted_nodup. exact S. Qed.

Lemma c09_shape_holds p dst c b s : Shape p dst c -> In b p -> kept dst b -> In (key_of b, s) c ->
  slot_get (class_of b) s = Some b.
Proof. intros Sh I K Hs. apply (sh_slot _ _ _ Sh _ _ _ _ Hs). repeat split; assumption. Qed.

Lemma c09_shape_find p dst c b : Shape p dst c -> In b p -> kept dst b ->
  exists s, In (key_of b, s) c /\ slot_get (class_of b) s = Some b.
Proof.
  intros Sh I K. destruct (c09_keys_in (key_of b) c) as [s Hs].
  - apply (sh_keys _ _ _ Sh). exists (class_of b), b. repeat split; assumption.
  - exists s. split; [exact Hs | exact (c09_shape_holds _ _ _ _ _ Sh I K Hs)].
Qed.

Lemma c09_shape_nonempty p dst c k s : Shape p dst c -> In (k, s) c -> exists cl b, slot_get cl s = Some b.
Proof.
  intros Sh Hs. destruct (proj1 (sh_keys _ _ _ Sh k) (c09_in_keys _ _ _ Hs)) as (cl & b & P).
  exists cl, b. apply (sh_slot _ _ _ Sh _ _ _ _ Hs). exact P.
Qed.

Lemma c09_shape_major_has_dev p dst c k s :
  Shape p dst c -> In (k, s) c -> snd k = None -> s_dev s <> None.
Proof.
  intros Sh Hin Ek F. destruct (c09_shape_nonempty _ _ _ _ _ Sh Hin) as (cl & b & G). pose proof G as P.
  apply (sh_slot _ _ _ Sh _ _ _ _ Hin) in P as (_ & _ & Kk & Cc). subst k cl.
  destruct b; try discriminate Ek. cbn in G. rewrite F in G. discriminate G.
Qed.

Lemma c09_shape_stab_slot p dst c k s sb : Shape p dst c -> In (k, s) c -> s_stab s = Some sb ->
  exists x y z, k = (x, Some y) /\ sb = Stab x y z /\ In sb p.
Proof.
  intros Sh Hin F. destruct (proj1 (sh_slot _ _ _ Sh _ _ CStab _ Hin) F) as (I & _ & <- & Cc).
  destruct sb as [|x y z|]; try discriminate Cc. exists x, y, z. auto.
Qed.

Lemma c09_kept_hotfix d x y z : kept (Some d) (Hotfix x y z) -> d = Hotfix x y z.
Proof.
  unfold kept, hotfix_discarded. destruct d as [| |dx dy dz]; try discriminate. intro H.
  apply orb_false_iff in H as [H Hz]. apply orb_false_iff in H as [Hx Hy].
  apply negb_false_iff, Z.eqb_eq in Hx, Hy, Hz. subst. reflexivity.
Qed.

Lemma c09_kept_self dst : kept (Some dst) dst.
Proof. unfold kept. destruct dst; cbn; rewrite ?Z.eqb_refl; reflexivity. Qed.

Lemma c09_shape_hotfix p dst c k s hb : Shape p (Some dst) c -> In (k, s) c -> slot_get CHotfix s = Some hb ->
  hb = dst /\ key_of dst = k /\ is_hotfix dst = true.
Proof.
  intros Sh Hs G. apply (sh_slot _ _ _ Sh _ _ _ _ Hs) in G as (_ & K & E & C).
  destruct hb; try discriminate C. apply c09_kept_hotfix in K. subst dst. auto.
Qed.

Lemma c09_placed_clash p dst b b' :
  placed p dst (key_of b) (class_of b) b' -> kept dst b -> b <> b' -> two_stabs (b :: p) = true.
Proof.
  intros (I & K' & E & C) K N. apply c09_two_stabs_iff.
  destruct b as [x y|x y z|x y z], b' as [x' y'|x' y' z'|x' y' z']; try discriminate C;
  cbn in E; injection E as -> E; subst.
  - contradiction.
  - exists x, y, z, z'. split; [left; reflexivity|]. split; [right; exact I | congruence].
  - destruct dst as [d|]; [|discriminate K]. apply c09_kept_hotfix in K, K'. congruence.
Qed.

Lemma c09_shape_no_two_stabs p dst c : Shape p dst c -> two_stabs p = false.
Proof.
  intro Sh. apply not_true_is_false. intro T. apply c09_two_stabs_iff in T as (x & y & z1 & z2 & H1 & H2 & N).
  destruct (c09_shape_find _ _ _ _ Sh H1 eq_refl) as (s & Hs & G1).
  pose proof (c09_shape_holds _ _ _ _ _ Sh H2 eq_refl Hs) as G2. cbn in G1, G2. congruence.
Qed.

Lemma c09_add_branch_eq b dst c : ksorted c ->
  add_branch b dst c =
  if hotfix_discarded b dst then Ok c
  else if occupied (class_of b) (match lookup (key_of b) c with Some s => s | None => empty_slot end)
       then Err UnsupportedMultipleStabBranches
       else Ok (set_slot (key_of b) (put b) (ensure (key_of b) c)).
Proof.
  intro S. unfold add_branch. replace (can_be_destination (class_of b)) with true by (destruct b; reflexivity).
  cbn [negb]. destruct (hotfix_discarded b dst); [reflexivity|]. cbv zeta. fold (ensure (key_of b) c).
  rewrite (c09_lookup_ensure _ _ S). reflexivity.
Qed.

Lemma c09_placed_cons p dst k cl b b0 :
  placed (b :: p) dst k cl b0 <->
  (b0 = b /\ kept dst b /\ key_of b = k /\ class_of b = cl) \/ placed p dst k cl b0.
Proof.
  unfold placed. cbn [In]. split; [intros ([<-|I] & R) | intros [(-> & R)|(I & R)]]; tauto.
Qed.

Lemma c09_add_branch_shape p dst c b :
  Shape p dst c -> Fresh c ->
  match add_branch b dst c with
  | Ok c' => Shape (b :: p) dst c' /\ Fresh c'
  | Err e => e = UnsupportedMultipleStabBranches /\ kept dst b /\
             exists b', placed p dst (key_of b) (class_of b) b'
  end.
Proof.
  intros Sh Fr. rewrite (c09_add_branch_eq _ _ _ (sh_sorted _ _ _ Sh)).
  destruct (hotfix_discarded b dst) eqn:Hd.
  { split; [|exact Fr]. revert Sh. apply c09_shape_placed. intros k cl b0. rewrite c09_placed_cons.
    split; [intro H; right; exact H | intros [(_ & K & _)|H]; [congruence | exact H]]. }
  set (k := key_of b). set (s0 := match lookup k c with Some s => s | None => empty_slot end).
  (* what the slots of [ensure k c] hold *)
  assert (L1 : forall k' s cl b0, In (k', s) (ensure k c) -> (slot_get cl s = Some b0 <-> placed p dst k' cl b0)).
  { intros k' s cl b0 Hin. apply c09_in_ensure in Hin as [Hin|[L E]]; [apply (sh_slot _ _ _ Sh); exact Hin|].
    injection E as -> ->. split; [destruct cl; discriminate|]. intros P. destruct (c09_lookup_none _ _ L).
    apply (sh_keys _ _ _ Sh). eauto. }
  assert (Hs0 : In (k, s0) (ensure k c)) by (apply c09_lookup_some_in, c09_lookup_ensure, Sh).
  rewrite c09_occupied_get. destruct (slot_get (class_of b) s0) as [b'|] eqn:Oc.
  { split; [reflexivity|]. split; [exact Hd|]. exists b'. apply (L1 _ _ _ _ Hs0). exact Oc. }
  pose proof (c09_ensure_sorted k c (sh_sorted _ _ _ Sh)) as S1.
  rewrite c09_set_slot_map_slots. split.
  - constructor.
    + unfold ksorted. rewrite c09_keys_map_slots. exact S1.
    + intro k'. rewrite c09_keys_map_slots. split.
      * intro H. apply c09_keys_in in H as [s H]. apply c09_in_ensure in H as [H|[_ [= -> _]]].
        -- destruct (proj1 (sh_keys _ _ _ Sh k') (c09_in_keys _ _ _ H)) as (cl & b0 & P).
           exists cl, b0. apply c09_placed_cons. right. exact P.
        -- exists (class_of b), b. apply c09_placed_cons. left. repeat split. exact Hd.
      * intros (cl & b0 & P). apply c09_placed_cons in P as [(_ & _ & <- & _)|P]; [exact (c09_in_keys _ _ _ Hs0)|].
        destruct (c09_keys_in k' c) as [s H]; [apply (sh_keys _ _ _ Sh); eauto|].
        apply (c09_in_keys _ s), c09_in_ensure. left. exact H.
    + intros k' s' cl b0 Hs'. apply c09_in_map_slots in Hs' as (s & Hs & ->).
      rewrite c09_placed_cons, <- (L1 k' s cl b0 Hs). destruct (key_eqb k k') eqn:E.
      * apply c09_key_eqb_eq in E. subst k'.
        injection (NoDup_map_inj fst _ _ _ (c09_llt_sorted_nodup _ S1) Hs Hs0 eq_refl) as ->.
        rewrite c09_slot_get_put. destruct (bclass_eqb cl (class_of b)) eqn:Ec.
        -- apply c09_bclass_eqb_eq in Ec. subst cl. rewrite Oc. split.
           ++ intros [= <-]. left. repeat split. exact Hd.
           ++ intros [(-> & _)|H]; [reflexivity | discriminate H].
        -- split; [intro H; right; exact H | intros [(_ & _ & _ & <-)|H]; [|exact H]].
           destruct (class_of b); discriminate Ec.
      * split; [intro H; right; exact H | intros [(_ & _ & <- & _)|H]; [|exact H]].
        fold k in E. rewrite c09_key_eqb_refl in E. discriminate E.
  - intros k' s' Hs'. apply c09_in_map_slots in Hs' as (s & Hs & ->).
    assert (F : fresh_slot s).
    { apply c09_in_ensure in Hs as [Hs|[_ E]]; [exact (Fr _ _ Hs)|]. injection E as _ ->. reflexivity. }
    destruct (key_eqb k k'); [apply c09_fresh_put|]; exact F.
Qed.

Lemma c09_add_all_shape order : forall p dst c,
  Shape p dst c -> Fresh c -> NoDup order -> (forall b, In b order -> ~ In b p) ->
  match add_all order dst c with
  | Ok c' => Shape (order ++ p) dst c' /\ Fresh c'
  | Err e => e = UnsupportedMultipleStabBranches /\ two_stabs (order ++ p) = true
  end.
Proof.
  induction order as [|b t IH]; intros p dst c Sh Fr ND Dj; cbn [add_all app]; [split; assumption|].
  apply NoDup_cons_iff in ND as [Hnb NDt].
  pose proof (c09_add_branch_shape p dst c b Sh Fr) as A.
  destruct (add_branch b dst c) as [c1|e1]; cbn [bind].
  - destruct A as [Sh1 Fr1].
    pose proof (Permutation_middle t p b) as M.
    assert (Dj1 : forall x, In x t -> ~ In x (b :: p)).
    { intros x Hx [<-|Hp]; [contradiction|]. apply (Dj x); [right; exact Hx | exact Hp]. }
    specialize (IH (b :: p) dst c1 Sh1 Fr1 NDt Dj1).
    destruct (add_all t dst c1) as [c'|e].
    + destruct IH as [Sh2 Fr2]. split; [|exact Fr2]. exact (c09_shape_perm _ _ _ _ (Permutation_sym M) Sh2).
    + destruct IH as [-> T]. split; [reflexivity|]. rewrite (c09_two_stabs_perm _ _ M). exact T.
  - destruct A as (-> & K & b' & P). split; [reflexivity|].
    apply (c09_two_stabs_incl (b :: p)).
    + intros x [<-|Hx]; [left; reflexivity|]. right. apply in_app_iff. right. exact Hx.
    + apply (c09_placed_clash p dst b b' P K). intros <-. apply (Dj b); [left; reflexivity | apply P].
Qed.

Lemma c09_add_all_result order dst :
  NoDup order ->
  (two_stabs order = true /\ add_all order dst [] = Err UnsupportedMultipleStabBranches) \/
  (two_stabs order = false /\ exists c, add_all order dst [] = Ok c /\ Shape order dst c /\ Fresh c).
Proof.
  intro ND.
  assert (Sh0 : Shape [] dst []).
  { constructor; [constructor | | intros k s cl b []]. intro k. split; [intros [] | intros (cl & b & [] & _)]. }
  pose proof (c09_add_all_shape order [] dst [] Sh0 (fun k s (H : In (k, s) []) => match H with end) ND (fun b _ H => H)) as A.
  rewrite app_nil_r in A. destruct (add_all order dst []) as [c|e].
  - right. destruct A as [Sh Fr]. split; [eapply c09_shape_no_two_stabs; exact Sh | eauto].
  - left. destruct A as [-> T]. auto.
Qed.

Lemma c09_shape_unique p dst c1 c2 :
  Shape p dst c1 -> Shape p dst c2 -> Fresh c1 -> Fresh c2 -> c1 = c2.
Proof.
  intros Sh1 Sh2 Fr1 Fr2. apply c09_assoc_eq.
  - apply c09_llt_sorted_ext; [apply Sh1 | apply Sh2|].
    intro k. rewrite (sh_keys _ _ _ Sh1), (sh_keys _ _ _ Sh2). reflexivity.
  - intros k s1 s2 H1 H2. apply c09_fresh_slot_eq; [exact (Fr1 _ _ H1) | exact (Fr2 _ _ H2)|].
    intro cl. apply opt_eq_iff. intro b. rewrite (sh_slot _ _ _ Sh1 _ _ _ _ H1), (sh_slot _ _ _ Sh2 _ _ _ _ H2). reflexivity.
Qed.

Lemma c09_add_all_perm o1 o2 dst : Permutation o1 o2 -> NoDup o1 -> add_all o1 dst [] = add_all o2 dst [].
Proof.
  intros P ND1. assert (ND2 : NoDup o2) by (eapply Permutation_NoDup; eassumption).
  destruct (c09_add_all_result o1 dst ND1) as [[T1 ->]|(T1 & c1 & -> & Sh1 & Fr1)];
  destruct (c09_add_all_result o2 dst ND2) as [[T2 ->]|(T2 & c2 & -> & Sh2 & Fr2)];
  rewrite (c09_two_stabs_perm _ _ P) in T1; try congruence.
  f_equal. apply (c09_shape_unique o2 dst); try assumption.
  exact (c09_shape_perm _ _ _ _ P Sh1).
Qed.

Definition somes {A} (l : list (option A)) : list A :=
  flat_map (fun o => match o with Some a => [a] | None => [] end) l.

Lemma c09_release_tags_somes tags : release_tags tags = somes (map parse_tag tags).
Proof. symmetry. apply flat_map_map. Qed.

Lemma c09_map_slots_map_slots g h c :
  map_slots g (map_slots h c) = map_slots (fun k s => g k (h k s)) c.
Proof. unfold map_slots. rewrite map_map. reflexivity. Qed.

Lemma c09_map_slots_ext_in g h c :
  (forall k s, In (k, s) c -> g k s = h k s) -> map_slots g c = map_slots h c.
Proof.
  intro H. unfold map_slots. apply map_ext_in. intros [k s] Hin. cbn [fst snd]. rewrite (H k s Hin). reflexivity.
Qed.

Lemma c09_map_slots_id_in g c : (forall k s, In (k, s) c -> g k s = s) -> map_slots g c = c.
Proof.
  intro H. rewrite <- (map_id c) at 2. apply map_ext_in. intros [k s] Hin. cbn [fst snd].
  rewrite (H k s Hin). reflexivity.
Qed.

Lemma c09_lookup_map_slots g c k : lookup k (map_slots g c) = option_map (g k) (lookup k c).
Proof.
  induction c as [|[k' s] t IH]; cbn [map_slots map lookup fst snd option_map]; [reflexivity|].
  destruct (key_eqb k k') eqn:E; [|exact IH]. apply c09_key_eqb_eq in E. subst. reflexivity.
Qed.

Definition same_desc (s s' : slot) : Prop := forall cl, slot_get cl s' = slot_get cl s.

Lemma c09_same_desc_trans s1 s2 s3 : same_desc s1 s2 -> same_desc s2 s3 -> same_desc s1 s3.
Proof. intros H1 H2 cl. rewrite H2. apply H1. Qed.

Lemma c09_shape_map_slots p dst c g :
  (forall k s, same_desc s (g k s)) -> Shape p dst c -> Shape p dst (map_slots g c).
Proof.
  intros D [S K L]. constructor.
  - unfold ksorted. rewrite c09_keys_map_slots. exact S.
  - intro k. rewrite c09_keys_map_slots. apply K.
  - intros k s' cl b Hin. apply c09_in_map_slots in Hin as (s & Hin & ->). rewrite D. apply L. exact Hin.
Qed.

Lemma c09_K1_neq_K2 (x y : Z) : key_eqb (x, Some y) (x, None) = false.
Proof. unfold key_eqb. cbn. apply andb_false_r. Qed.

Lemma c09_upd_dev_none f s : s_dev s = None -> upd_dev f s = s.
Proof. unfold upd_dev. intros ->. reflexivity. Qed.

Lemma c09_upd_dev_some f s db a : s_dev s = Some (db, a) -> s_dev (upd_dev f s) = Some (db, f a).
Proof. unfold upd_dev. intros ->. reflexivity. Qed.

Lemma c09_upd_dev_hf f s : s_hf (upd_dev f s) = s_hf s.
Proof. unfold upd_dev. destruct (s_dev s) as [[? ?]|]; reflexivity. Qed.

Lemma c09_upd_dev_desc f s : same_desc s (upd_dev f s).
Proof. intro cl. unfold upd_dev. destruct (s_dev s) as [[db a]|] eqn:F; [|reflexivity]. destruct cl; cbn; rewrite ?F; reflexivity. Qed.

Definition hf_step (z hfrev : Z) (s : slot) : slot :=
  match s_hf s with
  | Some (hb, rev) => if micro_of hb =? z then set_hfrev (Z.max (hfrev + 1) rev) s else s
  | None => s
  end.
Definition micro_step (z : Z) : slot -> slot :=
  upd_dev (fun a => mkDA (Z.max z (da_micro a)) (da_latest_minor a) (da_has_stab a) (da_stab_micro a)).
Definition lminor_step (y : Z) : slot -> slot :=
  upd_dev (fun a => mkDA (da_micro a) (Z.max y (da_latest_minor a)) (da_has_stab a) (da_stab_micro a)).
Definition tag_slot (t : ptag) (k : key) (s : slot) : slot :=
  let '(x, y, z, h) := t in
  let hfrev := match h with Some n => n | None => tag_default_hfrev end in
  if key_eqb (x, Some y) k then micro_step z (hf_step z hfrev s)
  else if key_eqb (x, None) k then lminor_step y s else s.

Lemma c09_hf_step_dev z r s : s_dev (hf_step z r s) = s_dev s.
Proof. unfold hf_step, set_hfrev. destruct (s_hf s) as [[hb rev]|]; [destruct (micro_of hb =? z)|]; reflexivity. Qed.

Lemma c09_hf_step_hf z v s hb r :
  s_hf s = Some (hb, r) -> s_hf (hf_step z v s) = Some (hb, if micro_of hb =? z then Z.max (v + 1) r else r).
Proof. intro F. unfold hf_step, set_hfrev. rewrite F. destruct (micro_of hb =? z); [reflexivity | exact F]. Qed.

Lemma c09_hf_step_desc z r s : same_desc s (hf_step z r s).
Proof.
  intro cl. unfold hf_step. destruct (s_hf s) as [[hb rev]|] eqn:F; [|reflexivity].
  destruct (micro_of hb =? z); [|reflexivity]. unfold set_hfrev. rewrite F.
  destruct cl; cbn [slot_get s_dev s_stab s_hf option_map fst]; rewrite ?F; reflexivity.
Qed.

Lemma c09_tag_slot_desc t k s : same_desc s (tag_slot t k s).
Proof.
  destruct t as [[[x y] z] h]. unfold tag_slot.
  destruct (key_eqb (x, Some y) k).
  - eapply c09_same_desc_trans; [apply c09_hf_step_desc | apply c09_upd_dev_desc].
  - destruct (key_eqb (x, None) k); [apply c09_upd_dev_desc | intro; reflexivity].
Qed.

(* does tag t make update_versions raise DeprecatedStabilizationBranch? (reads branch names only) *)
Definition dep_slot (micro : Z) (s : slot) : bool :=
  match slot_get CHotfix s, slot_get CStab s with
  | Some hb, Some sb => micro_of sb =? micro_of hb
  | _, _ => false
  end
  || match slot_get CStab s with Some sb => micro_of sb <=? micro | None => false end.
Definition dep_at (t : ptag) (c : cascade) : bool :=
  let '(x, y, z, _) := t in
  match lookup (x, Some y) c with Some s => dep_slot z s | None => false end.

Lemma c09_dep_at_map_slots t g c : (forall k s, same_desc s (g k s)) -> dep_at t (map_slots g c) = dep_at t c.
Proof.
  intro H. destruct t as [[[x y] z] h]. unfold dep_at. rewrite c09_lookup_map_slots.
  destruct (lookup (x, Some y) c) as [s|]; cbn [option_map]; [|reflexivity]. unfold dep_slot. rewrite (H _ s CHotfix), (H _ s CStab). reflexivity.
Qed.

Lemma c09_set_slot_id k f c : (forall s, In (k, s) c -> f s = s) -> set_slot k f c = c.
Proof.
  intro H. rewrite c09_set_slot_map_slots. apply c09_map_slots_id_in. intros k' s Hin.
  destruct (key_eqb k k') eqn:E; [|reflexivity]. apply c09_key_eqb_eq in E. subst k'. apply H. exact Hin.
Qed.

(* "if hf_branch and hf_branch.micro == micro: hf_branch.hfrev = max(...)" assigns in every case *)
Lemma c09_hf_assign k z hfrev c : NoDup (keys c) ->
  match obind (lookup k c) s_hf with
  | Some (hb, rev) => if micro_of hb =? z then set_slot k (set_hfrev (Z.max (hfrev + 1) rev)) c else c
  | None => c
  end = set_slot k (hf_step z hfrev) c.
Proof.
  intro ND. destruct (lookup k c) as [s0|] eqn:L; cbn [obind].
  - assert (U : forall s, In (k, s) c -> s = s0) by (intros s Hin; rewrite (c09_in_lookup _ _ _ ND Hin) in L; congruence).
    destruct (s_hf s0) as [[hb rev]|] eqn:Fh; [destruct (micro_of hb =? z) eqn:Ez|].
    + apply map_ext_in. intros [k' s] Hin. cbn [fst snd]. destruct (key_eqb k k') eqn:E; [|reflexivity].
      apply c09_key_eqb_eq in E. subst k'. rewrite (U s Hin). unfold hf_step. rewrite Fh, Ez. reflexivity.
    + symmetry. apply c09_set_slot_id. intros s Hin. rewrite (U s Hin). unfold hf_step. rewrite Fh, Ez. reflexivity.
    + symmetry. apply c09_set_slot_id. intros s Hin. rewrite (U s Hin). unfold hf_step. rewrite Fh. reflexivity.
  - symmetry. apply c09_set_slot_id. intros s Hin. destruct (c09_lookup_none _ _ L). eapply c09_in_keys; exact Hin.
Qed.

(* "if dev_branch: dev_branch.attr = ..." (the guard read before the slots were touched by g) assigns
   in every case: without a development branch upd_dev changes nothing *)
Lemma c09_dev_assign k f g c : NoDup (keys c) -> (forall k s, same_desc s (g k s)) ->
  match obind (lookup k c) s_dev with
  | Some _ => set_slot k (upd_dev f) (map_slots g c)
  | None => map_slots g c
  end = set_slot k (upd_dev f) (map_slots g c).
Proof.
  intros ND D. destruct (obind (lookup k c) s_dev) eqn:E; [reflexivity|]. symmetry. apply c09_set_slot_id.
  intros s' Hin. apply c09_in_map_slots in Hin as (s & Hin & ->). apply c09_upd_dev_none.
  rewrite (c09_in_lookup _ _ _ ND Hin) in E. cbn in E. specialize (D k s CDev). cbn in D. rewrite E in D.
  destruct (s_dev (g k s)); [discriminate D | reflexivity].
Qed.

Lemma c09_update_versions_closed t c :
  NoDup (keys c) ->
  update_versions t c =
  if dep_at t c then Err DeprecatedStabilizationBranch else Ok (map_slots (tag_slot t) c).
Proof.
  intro ND. destruct t as [[[x y] z] h]. unfold update_versions, dep_at. cbv zeta.
  rewrite (c09_hf_assign _ _ _ _ ND), (c09_set_slot_map_slots _ (hf_step _ _) c).
  rewrite (c09_dev_assign _ _ _ _ ND)
    by (intros k s; destruct (key_eqb (x, Some y) k); [apply c09_hf_step_desc | intro; reflexivity]).
  rewrite (c09_set_slot_map_slots (x, Some y)), c09_map_slots_map_slots.
  rewrite (c09_dev_assign _ _ _ _ ND)
    by (intros k s; destruct (key_eqb (x, Some y) k);
        [eapply c09_same_desc_trans; [apply c09_hf_step_desc | apply c09_upd_dev_desc] | intro; reflexivity]).
  rewrite (c09_set_slot_map_slots (x, None)), c09_map_slots_map_slots.
  rewrite (c09_map_slots_ext_in _ (tag_slot (x, y, z, h)) c).
  2:{ intros k s _. unfold tag_slot.
      destruct (key_eqb (x, Some y) k) eqn:E1, (key_eqb (x, None) k) eqn:E2; try reflexivity.
      apply c09_key_eqb_eq in E1, E2. congruence. }
  destruct (lookup (x, Some y) c) as [s0|] eqn:L1; cbn [obind].
  - unfold dep_slot. cbn [slot_get].
    destruct (s_hf s0) as [[hb rev]|], (s_stab s0) as [sb|]; cbn [option_map fst orb]; try reflexivity.
    destruct (micro_of sb =? micro_of hb); reflexivity.
  - destruct (lookup (x, None) c) eqn:L2; [reflexivity|]. f_equal. symmetry. apply c09_map_slots_id_in.
    intros k s Hin. unfold tag_slot. apply c09_in_keys in Hin.
    rewrite !c09_key_eqb_neq; [reflexivity | |]; intros <-; [exact (c09_lookup_none _ _ L2 Hin) | exact (c09_lookup_none _ _ L1 Hin)].
Qed.

Definition tags_slot (ts : list ptag) (k : key) (s : slot) : slot := fold_left (fun s t => tag_slot t k s) ts s.

Lemma c09_tags_slot_desc ts k : forall s, same_desc s (tags_slot ts k s).
Proof.
  unfold tags_slot. induction ts as [|t r IH]; intro s; cbn [fold_left]; [intro; reflexivity|].
  eapply c09_same_desc_trans; [apply c09_tag_slot_desc | apply IH].
Qed.

Lemma c09_update_all_closed ts : forall c,
  NoDup (keys c) ->
  update_all ts c =
  if existsb (fun t => dep_at t c) (somes ts) then Err DeprecatedStabilizationBranch
  else Ok (map_slots (tags_slot (somes ts)) c).
Proof.
  induction ts as [|[t|] r IH]; intros c ND; cbn [update_all somes flat_map app existsb].
  - f_equal. symmetry. apply c09_map_slots_id_in. reflexivity.
  - rewrite (c09_update_versions_closed t c ND). fold (somes r).
    destruct (dep_at t c); cbn [orb bind]; [reflexivity|].
    rewrite IH by (rewrite c09_keys_map_slots; exact ND).
    rewrite (existsb_ext_in (fun t0 => dep_at t0 (map_slots (tag_slot t) c)) (fun t0 => dep_at t0 c))
      by (intros t0 _; apply c09_dep_at_map_slots; intros; apply c09_tag_slot_desc).
    destruct (existsb (fun t0 => dep_at t0 c) (somes r)); [reflexivity|].
    rewrite c09_map_slots_map_slots. reflexivity.
  - fold (somes r). apply IH; exact ND.
Qed.

Lemma c09_update_all_ok ts c : NoDup (keys c) ->
  (exists c1, update_all ts c = Ok c1) <-> existsb (fun t => dep_at t c) (somes ts) = false.
Proof.
  intro ND. rewrite c09_update_all_closed by exact ND.
  destruct (existsb _ _).
  - split; [intros [x Hx]; discriminate Hx | discriminate].
  - split; [reflexivity | intros _; eexists; reflexivity].
Qed.

Definition minors_of (ks : list key) (x : Z) : list Z :=
  flat_map (fun k' => if fst k' =? x then match snd k' with Some m => [m] | None => [] end else []) ks.

Definition major_slot (ks : list key) (k : key) (s : slot) : slot :=
  match snd k with
  | Some _ => s
  | None =>
      match s_dev s with
      | Some (db, a) =>
          mkSlot (Some (db, mkDA (da_micro a) (max_list (da_latest_minor a) (minors_of ks (major_of db)))
                                 (da_has_stab a) (da_stab_micro a))) (s_stab s) (s_hf s)
      | None => s
      end
  end.

(* AttributeError needs a development/x key without its branch object *)
Lemma c09_update_major_closed c :
  (forall k s, In (k, s) c -> snd k = None -> s_dev s <> None) ->
  update_major_versions c = Ok (map_slots (major_slot (keys c)) c).
Proof.
  unfold update_major_versions. cbv zeta. fold (keys c). generalize (keys c) as ks. intros ks H.
  induction c as [|[k s] t IH]; cbn [fold_right map_slots map fst snd]; [reflexivity|].
  rewrite IH by (intros k0 s0 Hin; apply H; right; exact Hin). fold (map_slots (major_slot ks) t).
  destruct k as [x [y|]]; cbn [snd bind]; [reflexivity|].
  destruct (s_dev s) as [[db a]|] eqn:F; [cbn [bind]; unfold major_slot at 2, minors_of; cbn [snd]; rewrite F; reflexivity|].
  destruct (H (x, None) s); [left; reflexivity | reflexivity | exact F].
Qed.

Lemma c09_major_slot_desc ks k s : same_desc s (major_slot ks k s).
Proof.
  intro cl. unfold major_slot. destruct (snd k); [reflexivity|].
  destruct (s_dev s) as [[db a]|] eqn:F; [|reflexivity]. destruct cl; cbn; rewrite ?F; reflexivity.
Qed.

Lemma c09_max_list_acc z d l : max_list (Z.max z d) l = Z.max z (max_list d l).
Proof. unfold max_list. induction l as [|a t IH]; cbn [fold_right]; [reflexivity|]. rewrite IH. lia. Qed.

Lemma c09_next_after_acc n d l : next_after (Z.max (n + 1) d) l = Z.max (n + 1) (next_after d l).
Proof. unfold next_after. induction l as [|a t IH]; cbn [fold_right]; [reflexivity|]. rewrite IH. lia. Qed.

Lemma c09_next_after_max_list d l : next_after d l = max_list (d - 1) l + 1.
Proof. unfold next_after, max_list. induction l as [|a t IH]; cbn [fold_right]; [lia|]. rewrite IH. lia. Qed.

Lemma c09_max_list_app d l1 l2 : max_list d (l1 ++ l2) = max_list (max_list d l2) l1.
Proof. unfold max_list. apply fold_right_app. Qed.

Lemma c09_max_list_perm d l1 l2 : Permutation l1 l2 -> max_list d l1 = max_list d l2.
Proof. unfold max_list. induction 1; cbn [fold_right]; [reflexivity | congruence | lia | congruence]. Qed.

Definition rel_patches (ts : list ptag) (k : key) : list Z :=
  match snd k with Some y => released_patches ts (fst k) y | None => [] end.
Definition rel_minors (ts : list ptag) (k : key) : list Z :=
  match snd k with None => released_minors ts (fst k) | Some _ => [] end.
Definition rel_hf (ts : list ptag) (k : key) (hb : branch) : list Z :=
  match snd k with Some y => released_hfrevs ts (fst k) y (micro_of hb) | None => [] end.

Lemma c09_key_eqb_some_false x y kx ky : key_eqb (x, Some y) (kx, Some ky) = false -> (x =? kx) && (y =? ky) = false.
Proof. unfold key_eqb. cbn. auto. Qed.

Lemma c09_tags_slot_dev ts k : forall s db a,
  s_dev s = Some (db, a) ->
  s_dev (tags_slot ts k s) =
  Some (db, mkDA (max_list (da_micro a) (rel_patches ts k)) (max_list (da_latest_minor a) (rel_minors ts k))
                 (da_has_stab a) (da_stab_micro a)).
Proof.
  unfold tags_slot. induction ts as [|t r IH]; intros s db a F; cbn [fold_left].
  - unfold rel_patches, rel_minors. destruct (snd k); cbn; rewrite F; destruct a; reflexivity.
  - destruct t as [[[x y] z] h]. unfold tag_slot at 2, micro_step, lminor_step.
    destruct (key_eqb (x, Some y) k) eqn:E1; [|destruct (key_eqb (x, None) k) eqn:E2].
    + apply c09_key_eqb_eq in E1. subst k.
      rewrite (IH _ _ _ (c09_upd_dev_some _ _ _ _ (eq_trans (c09_hf_step_dev _ _ _) F))).
      unfold rel_patches, rel_minors, released_patches. cbn [snd fst flat_map da_micro da_latest_minor da_has_stab da_stab_micro].
      rewrite !Z.eqb_refl. cbn [andb app]. rewrite c09_max_list_acc. reflexivity.
    + apply c09_key_eqb_eq in E2. subst k. rewrite (IH _ _ _ (c09_upd_dev_some _ _ _ _ F)).
      unfold rel_patches, rel_minors, released_minors. cbn [snd fst flat_map da_micro da_latest_minor da_has_stab da_stab_micro].
      rewrite !Z.eqb_refl. cbn [app]. rewrite c09_max_list_acc. reflexivity.
    + rewrite (IH _ _ _ F). unfold rel_patches, rel_minors, released_patches, released_minors.
      destruct k as [kx [ky|]]; cbn [snd fst flat_map].
      * rewrite (c09_key_eqb_some_false _ _ _ _ E1). reflexivity.
      * unfold key_eqb in E2. cbn in E2. rewrite andb_true_r in E2. rewrite E2. reflexivity.
Qed.

Lemma c09_tags_slot_hf ts k : forall s hb r,
  s_hf s = Some (hb, r) -> s_hf (tags_slot ts k s) = Some (hb, next_after r (rel_hf ts k hb)).
Proof.
  unfold tags_slot. induction ts as [|t rest IH]; intros s hb r F; cbn [fold_left].
  - unfold rel_hf. destruct (snd k); cbn; exact F.
  - destruct t as [[[x y] z] h]. unfold tag_slot at 2, micro_step, lminor_step.
    destruct (key_eqb (x, Some y) k) eqn:E1.
    + apply c09_key_eqb_eq in E1. subst k.
      rewrite (IH _ _ _ (eq_trans (c09_upd_dev_hf _ _) (c09_hf_step_hf _ _ _ _ _ F))).
      unfold rel_hf, released_hfrevs. cbn [snd fst flat_map]. rewrite !Z.eqb_refl. cbn [andb].
      rewrite (Z.eqb_sym z (micro_of hb)). destruct (micro_of hb =? z); cbn [app]; [|reflexivity].
      rewrite c09_next_after_acc. destruct h; reflexivity.
    + assert (R : rel_hf (((x, y, z, h) : ptag) :: rest) k hb = rel_hf rest k hb).
      { unfold rel_hf, released_hfrevs. destruct k as [kx [ky|]]; cbn [snd fst flat_map]; [|reflexivity].
        rewrite (c09_key_eqb_some_false _ _ _ _ E1). reflexivity. }
      rewrite R. destruct (key_eqb (x, None) k); [apply IH; rewrite <- F; apply c09_upd_dev_hf | apply IH; exact F].
Qed.

Definition final_slot (ts : list ptag) (ks : list key) (k : key) (s : slot) : slot :=
  major_slot ks k (tags_slot ts k s).

Lemma c09_final_slot_desc ts ks k s : same_desc s (final_slot ts ks k s).
Proof. eapply c09_same_desc_trans; [apply c09_tags_slot_desc | apply c09_major_slot_desc]. Qed.

Definition micro_final (ts : list ptag) (k : key) : Z := max_list default_micro (rel_patches ts k).
Definition lminor_final (ts : list ptag) (ks : list key) (k : key) (db : branch) : Z :=
  match snd k with
  | None => max_list (max_list default_latest_minor (rel_minors ts k)) (minors_of ks (major_of db))
  | Some _ => default_latest_minor
  end.

Definition Attrs (ts : list ptag) (ks : list key) (c : cascade) : Prop :=
  forall k s, In (k, s) c ->
    (forall db a, s_dev s = Some (db, a) ->
        a = mkDA (micro_final ts k) (lminor_final ts ks k db) default_has_stabilization default_stabilization_micro) /\
    (forall hb r, s_hf s = Some (hb, r) -> r = next_after default_hfrev (rel_hf ts k hb)).

Lemma c09_attrs_final ts ks c0 : Fresh c0 -> Attrs ts ks (map_slots (final_slot ts ks) c0).
Proof.
  intros Fr k s' Hin. apply c09_in_map_slots in Hin as (s & Hin & ->). pose proof (Fr _ _ Hin) as F.
  unfold final_slot, major_slot. split.
  - intros db a. destruct (s_dev s) as [[db0 a0]|] eqn:F0.
    + pose proof (f_equal s_dev F) as E. cbn in E. rewrite F0 in E. injection E as ->.
      pose proof (c09_tags_slot_dev ts k _ _ _ F0) as G.
      unfold micro_final, lminor_final, rel_minors in *. destruct (snd k); rewrite G; cbn; intros [= <- <-]; reflexivity.
    + pose proof (c09_tags_slot_desc ts k s CDev) as D. cbn in D. rewrite F0 in D.
      destruct (s_dev (tags_slot ts k s)) as [[? ?]|] eqn:G; [discriminate D|]. destruct (snd k); rewrite G; discriminate.
  - intros hb r. assert (E : s_hf (major_slot ks k (tags_slot ts k s)) = s_hf (tags_slot ts k s)).
    { unfold major_slot. destruct (snd k); [reflexivity|]. destruct (s_dev (tags_slot ts k s)) as [[? ?]|]; reflexivity. }
    fold (major_slot ks k (tags_slot ts k s)). rewrite E. destruct (s_hf s) as [[hb0 r0]|] eqn:F0.
    + pose proof (f_equal s_hf F) as E0. cbn in E0. rewrite F0 in E0. injection E0 as ->.
      rewrite (c09_tags_slot_hf ts k _ _ _ F0). intros [= <- <-]. reflexivity.
    + pose proof (c09_tags_slot_desc ts k s CHotfix) as D. cbn in D. rewrite F0 in D.
      destruct (s_hf (tags_slot ts k s)) as [[? ?]|]; [discriminate D | discriminate].
Qed.

Definition dev_b (s : slot) : list branch := match s_dev s with Some (db, _) => [db] | None => [] end.
Definition stab_b (s : slot) : list branch := match s_stab s with Some sb => [sb] | None => [] end.
Definition hf_b (s : slot) : list branch := match s_hf s with Some (hb, _) => [hb] | None => [] end.

Definition devs (l : cascade) : list branch := flat_map (fun e => dev_b (snd e)) l.
Definition stabs (l : cascade) : list branch := flat_map (fun e => stab_b (snd e)) l.

(* the development branch object after "dev_branch.has_stabilization = True" *)
Definition mark_dev (s : slot) : option (branch * devattrs) :=
  match s_dev s with
  | Some (db, a) => Some (db, match s_stab s with
                              | Some sb => mkDA (da_micro a) (da_latest_minor a) true (Some (micro_of sb))
                              | None => a
                              end)
  | None => None
  end.

Lemma c09_dst_hf_flag dst : String.prefix "hotfix/" (name_of dst) = is_hotfix dst.
Proof.
  destruct dst as [x [y|]|x y z|x y z]; try reflexivity.
  unfold name_of. generalize (dec x ++ "." ++ dec y ++ "." ++ dec z)%string. intro r. destruct r; reflexivity.
Qed.

(* One pass over a slot with a development branch and no hotfix branch, destination not a hotfix branch; the
   two flags of the loop are equal throughout.  f1: the development branch is a target (the destination was
   met, here or earlier); then the stabilization branch is ignored.  Otherwise the stabilization branch may
   be the destination, and both are targets; if not, the slot is below the destination and deleted. *)
Lemma c09_step_good dst k s db a f :
  s_dev s = Some (db, a) -> s_hf s = None ->
  fin_step dst false f f k s =
  Ok (let f1 := f || branch_eq dst db in
      if f1 || existsb (branch_eq dst) (stab_b s)
      then mkStep (if f1 then map name_of (stab_b s) else []) ((if f1 then [] else stab_b s) ++ [db])
                  [(k, mkSlot (mark_dev s) (if f1 then None else s_stab s) None)] true true true
      else mkStep (map name_of (db :: stab_b s)) [] [] false false true).
Proof.
  intros Fd Fh. destruct s as [d t h]. cbn [s_dev s_hf] in Fd, Fh. subst d h. unfold stab_b, mark_dev.
  destruct t as [sb|], f; unfold fin_step; cbn; destruct (branch_eq dst db); try reflexivity;
  destruct (branch_eq dst sb); reflexivity.
Qed.

Definition good_slot (s : slot) : Prop := s_dev s <> None /\ s_hf s = None.
Definition kept_slot (e : key * slot) : key * slot := (fst e, mkSlot (mark_dev (snd e)) None None).

Lemma c09_loop_kept dst : forall l last,
  (forall k s, In (k, s) l -> good_slot s) ->
  fin_loop dst false true true last l =
  Ok (mkFin (map name_of (stabs l)) (devs l) (map kept_slot l), match l with [] => last | _ => true end).
Proof.
  induction l as [|[k s] t IH]; intros last G; [reflexivity|].
  destruct (G k s (or_introl eq_refl)) as [Gd Gh]. destruct (s_dev s) as [[db a]|] eqn:Fd; [|contradiction].
  cbn [fin_loop]. rewrite (c09_step_good dst k s db a true Fd Gh). cbn [orb st_ignored st_dst st_rem st_ign st_inc st_last].
  rewrite IH by (intros k0 s0 Hin; apply (G k0 s0); right; exact Hin).
  unfold devs, stabs, kept_slot at 2. cbn [fin_cons bind f_ignored f_dst f_rem flat_map map fst snd app]. unfold dev_b at 2. rewrite Fd.
  rewrite map_app. destruct t; reflexivity.
Qed.

Lemma c09_loop_split dst l1 k0 s0 l2 db a : forall last,
  (forall k s, In (k, s) l1 -> good_slot s /\ forall cl b, slot_get cl s = Some b -> branch_eq dst b = false) ->
  s_dev s0 = Some (db, a) -> s_hf s0 = None -> (forall k s, In (k, s) l2 -> good_slot s) ->
  branch_eq dst db || existsb (branch_eq dst) (stab_b s0) = true ->
  fin_loop dst false false false last (l1 ++ (k0, s0) :: l2) =
  Ok (let f1 := branch_eq dst db in
      mkFin (map name_of (flat_map (fun e => dev_b (snd e) ++ stab_b (snd e)) l1 ++
                          (if f1 then stab_b s0 else []) ++ stabs l2))
            ((if f1 then [] else stab_b s0) ++ db :: devs l2)
            ((k0, mkSlot (mark_dev s0) (if f1 then None else s_stab s0) None) :: map kept_slot l2), true).
Proof.
  induction l1 as [|[k s] t IH]; intros last N Fd Fh G M; cbn [app fin_loop].
  - rewrite (c09_step_good dst k0 s0 db a false Fd Fh). cbn [orb]. rewrite M.
    cbn [st_ignored st_dst st_rem st_ign st_inc st_last]. rewrite (c09_loop_kept dst l2 true G).
    cbn [fin_cons bind f_ignored f_dst f_rem app flat_map]. rewrite map_app, <- app_assoc.
    destruct (branch_eq dst db), l2; reflexivity.
  - destruct (N k s (or_introl eq_refl)) as ([Gd Gh] & NB).
    destruct (s_dev s) as [[db' a']|] eqn:Fd'; [|contradiction].
    rewrite (c09_step_good dst k s db' a' false Fd' Gh), (NB CDev db') by (cbn; rewrite Fd'; reflexivity).
    assert (Ms : existsb (branch_eq dst) (stab_b s) = false)
      by (unfold stab_b; destruct (s_stab s) as [sb|] eqn:Fs; [cbn; rewrite (NB CStab sb Fs)|]; reflexivity).
    rewrite Ms. cbn [orb st_ignored st_dst st_rem st_ign st_inc st_last].
    rewrite (IH true (fun k1 s1 H => N k1 s1 (or_intror H)) Fd Fh G M).
    cbn [fin_cons bind f_ignored f_dst f_rem flat_map map fst snd]. unfold dev_b at 2. rewrite Fd'.
    rewrite !map_app. cbn [map app]. rewrite <- !app_assoc. reflexivity.
Qed.

(* what the loop needs of a slot when the destination is a hotfix branch: it is no orphan, and it holds no
   other hotfix branch *)
Definition hf_ok (dst : branch) (s : slot) : Prop :=
  (s_dev s <> None \/ (s_stab s = None /\ s_hf s <> None)) /\
  (forall hb r, s_hf s = Some (hb, r) -> hb = dst).

Lemma c09_step_hf dst k s : hf_ok dst s -> is_hotfix dst = true ->
  exists l,
  fin_step dst true false false k s =
  Ok (mkStep (map name_of (stab_b s ++ dev_b s)) (hf_b s)
             (match s_hf s with Some _ => [(k, mkSlot None None (s_hf s))] | None => [] end) false false l).
Proof.
  intros [O1 O2] D. destruct dst as [| |x y z]; try discriminate D. destruct s as [d t h].
  cbn [s_dev s_stab s_hf] in O1, O2. unfold stab_b, dev_b, hf_b. cbn [s_dev s_stab s_hf].
  destruct h as [[hb r]|]; [pose proof (O2 hb r eq_refl) as ->|].
  - destruct d as [[db a]|].
    + destruct t as [sb|]; unfold fin_step; cbn; rewrite String.eqb_refl; exists true; reflexivity.
    + destruct O1 as [O1|[-> _]]; [contradiction|]. unfold fin_step. cbn. rewrite String.eqb_refl. exists false. reflexivity.
  - destruct d as [[db a]|]; [|destruct O1 as [O1|[_ O1]]; contradiction]. destruct t as [sb|]; exists true; reflexivity.
Qed.

Lemma c09_loop_hf dst : forall l last,
  is_hotfix dst = true -> (forall k s, In (k, s) l -> hf_ok dst s) ->
  exists last',
  fin_loop dst true false false last l =
  Ok (mkFin (map name_of (flat_map (fun e => stab_b (snd e) ++ dev_b (snd e)) l))
            (flat_map (fun e => hf_b (snd e)) l)
            (flat_map (fun e => match s_hf (snd e) with
                                | Some _ => [(fst e, mkSlot None None (s_hf (snd e)))]
                                | None => []
                                end) l), last').
Proof.
  induction l as [|[k s] t IH]; intros last D G; [exists last; reflexivity|].
  destruct (c09_step_hf dst k s (G k s (or_introl eq_refl)) D) as (la & St).
  cbn [fin_loop]. rewrite St. cbn [st_ignored st_dst st_rem st_ign st_inc st_last].
  destruct (IH la D) as [last' E]; [intros k0 s0 Hin; apply (G k0 s0); right; exact Hin|].
  rewrite E. exists last'. cbn [fin_cons bind f_ignored f_dst f_rem flat_map map fst snd].
  rewrite !map_app. reflexivity.
Qed.

Lemma c09_step_err dst dst_hf ign inc k s e :
  fin_step dst dst_hf ign inc k s = Err e -> s_dev s = None /\ e = missing_dev_error k.
Proof.
  unfold fin_step. destruct (s_dev s) as [[db a]|].
  - (* with a development branch every path through the conditionals ends in Ok *)
    intro H. exfalso. revert H.
    destruct (s_hf s) as [[hb r]|], (s_stab s) as [sb|]; cbn.
    all: repeat match goal with |- context [if ?c then _ else _] => destruct c end.
    all: discriminate.
  - (* without one the only error raised is missing_dev_error k *)
    destruct (s_hf s) as [[hb r]|], (s_stab s) as [sb|]; cbn.
    all: repeat match goal with |- context [if ?c then _ else _] => destruct c end.
    all: try discriminate.
    all: intros [= <-]; auto.
Qed.

Lemma c09_step_orphan dst dst_hf ign inc k s :
  s_dev s = None -> s_stab s <> None -> fin_step dst dst_hf ign inc k s = Err (missing_dev_error k).
Proof.
  intros Fd Fs. destruct s as [d t h]. cbn in Fd, Fs. subst d. destruct t; [|contradiction].
  destruct h as [[? ?]|]; reflexivity.
Qed.

(* a stabilization branch without its development branch makes finalize raise DevBranchDoesNotExist,
   whatever else sits in the slot (since f5b7e55 also next to a hotfix destination) *)
Lemma c09_loop_err dst dst_hf : forall l ign inc last,
  (exists k s, In (k, s) l /\ s_dev s = None /\ s_stab s <> None) ->
  (forall k s, In (k, s) l -> s_dev s = None -> snd k <> None) ->
  fin_loop dst dst_hf ign inc last l = Err DevBranchDoesNotExist.
Proof.
  induction l as [|[k s] t IH]; intros ign inc last (k0 & s0 & Hin & B1 & B2) NK; [destruct Hin|].
  cbn [fin_loop].
  destruct (fin_step dst dst_hf ign inc k s) as [o|e] eqn:St.
  - rewrite IH; [reflexivity| |intros; eapply NK; [right|..]; eassumption].
    destruct Hin as [Hin|Hin]; [|exists k0, s0; auto].
    injection Hin as <- <-. rewrite (c09_step_orphan _ _ _ _ _ _ B1 B2) in St. discriminate St.
  - destruct (c09_step_err _ _ _ _ _ _ _ St) as [Fd ->]. unfold missing_dev_error.
    destruct (snd k) eqn:Ek; [reflexivity|]. destruct (NK k s (or_introl eq_refl) Fd Ek).
Qed.

Lemma c09_branch_eqb_eq a b : branch_eqb a b = true <-> a = b.
Proof.
  destruct a as [x1 y1|x1 y1 z1|x1 y1 z1], b as [x2 y2|x2 y2 z2|x2 y2 z2]; cbn [branch_eqb];
  try (split; [discriminate | discriminate]);
  rewrite ?andb_true_iff, ?Z.eqb_eq, ?c09_optZ_eqb_eq; split; try (intros [[-> ->] ->]; reflexivity);
  try (intros [-> ->]; reflexivity); intro H; injection H; auto.
Qed.

Lemma c09_branch_eqb_refl a : branch_eqb a a = true.
Proof. apply c09_branch_eqb_eq. reflexivity. Qed.

Lemma c09_mem_in b l : mem b l = true <-> In b l.
Proof. exact (existsb_eqb_In branch_eqb c09_branch_eqb_eq b l). Qed.

Lemma c09_in_dev_lines k bs : In k (dev_lines bs) <-> In (dev_of_line k) bs.
Proof.
  unfold dev_lines. rewrite in_flat_map. destruct k as [x y]. unfold dev_of_line. cbn [fst snd]. split.
  - intros (b & Hb & Hk). destruct b; cbn in Hk; try contradiction. destruct Hk as [E|[]]. injection E as -> ->. exact Hb.
  - intro H. exists (Dev x y). split; [exact H | left; reflexivity].
Qed.

Lemma c09_nodup_dev_lines bs : NoDup bs -> NoDup (dev_lines bs).
Proof.
  unfold dev_lines. induction 1 as [|b t Hn ND IH]; cbn [flat_map]; [constructor|].
  destruct b as [x y| |]; cbn [app]; try exact IH. constructor; [|exact IH].
  intro H. apply Hn. apply (c09_in_dev_lines (x, y)) in H. exact H.
Qed.

Lemma c09_filter_from (l1 : list key) k0 l2 :
  StronglySorted llt (l1 ++ k0 :: l2) -> filter (line_le k0) (l1 ++ k0 :: l2) = k0 :: l2.
Proof.
  intro S. destruct (StronglySorted_app_inv _ _ _ _ S) as [F1 F2]. rewrite Forall_forall in F1, F2.
  rewrite filter_app. cbn [filter]. rewrite c09_line_le_refl, filter_none, filter_all; [reflexivity | |].
  - intros k Hk. apply c09_line_le_iff. left. apply F2, Hk.
  - intros k Hk. unfold line_le. rewrite (F1 k Hk). reflexivity.
Qed.

Definition dev_slots (c : cascade) : cascade := filter (fun e => occupied CDev (snd e)) c.

Lemma c09_shape_dev_slot p dst c k s db a :
  Shape p dst c -> In (k, s) c -> s_dev s = Some (db, a) -> db = dev_of_line k /\ In (dev_of_line k) p.
Proof.
  intros Sh Hin F. assert (G : slot_get CDev s = Some db) by (cbn; rewrite F; reflexivity).
  apply (sh_slot _ _ _ Sh _ _ _ _ Hin) in G as (I & _ & <- & Cc). destruct db; try discriminate Cc. auto.
Qed.

Lemma c09_shape_has_dev p dst c k : Shape p dst c ->
  In (dev_of_line k) p -> exists s, In (k, s) c /\ occupied CDev s = true.
Proof.
  intros Sh I. destruct (c09_shape_find _ _ _ _ Sh I eq_refl) as (s & Hs & Hh).
  destruct k as [x y]. exists s. split; [exact Hs|].
  cbn in Hh. unfold occupied. destruct (s_dev s); [reflexivity | discriminate Hh].
Qed.

Lemma c09_dev_slots_lines p dst c : Shape p dst c -> NoDup p -> keys (dev_slots c) = sort_lines (dev_lines p).
Proof.
  intros Sh ND. rewrite c09_sort_lines_isort. symmetry.
  pose proof (StronglySorted_map_filter llt fst (fun e => occupied CDev (snd e)) c (sh_sorted _ _ _ Sh)) as S.
  apply (c09_sorted_perm_eq key line_le c09_line_le_antisym).
  - apply c09_isort_sorted; [exact c09_line_le_total | exact c09_line_le_trans].
  - apply c09_llt_sorted_le. exact S.
  - rewrite c09_isort_perm. apply NoDup_Permutation.
    + apply c09_nodup_dev_lines; exact ND.
    + apply c09_llt_sorted_nodup; exact S.
    + intro k. rewrite c09_in_dev_lines. unfold dev_slots, keys. rewrite in_map_iff. split.
      * intro I. destruct (c09_shape_has_dev _ _ _ k Sh I) as (s & Hs & Hd).
        exists (k, s). split; [reflexivity|]. apply filter_In. split; [exact Hs | exact Hd].
      * intros ([k' s] & <- & He). apply filter_In in He as [He Hd]. cbn [fst snd] in *.
        unfold occupied in Hd. destruct (s_dev s) as [[db a]|] eqn:F; [|discriminate Hd].
        apply (c09_shape_dev_slot _ _ _ _ _ _ _ Sh He F).
Qed.

Definition slot_bs (s : slot) : list branch := dev_b s ++ stab_b s ++ hf_b s.
Definition all_b (c : cascade) : list branch := flat_map (fun e => slot_bs (snd e)) c.

Lemma c09_in_slot_bs s b : In b (slot_bs s) <-> exists cl, slot_get cl s = Some b.
Proof.
  unfold slot_bs, dev_b, stab_b, hf_b. rewrite !in_app_iff. split.
  - intros [H|[H|H]]; [exists CDev | exists CStab | exists CHotfix]; cbn;
    [destruct (s_dev s) as [[? ?]|] | destruct (s_stab s) | destruct (s_hf s) as [[? ?]|]];
    try (destruct H as [<-|[]]; reflexivity); destruct H.
  - intros ([| |] & G); cbn in G;
    [left; destruct (s_dev s) as [[? ?]|] | right; left; destruct (s_stab s) | right; right; destruct (s_hf s) as [[? ?]|]];
    try discriminate G; injection G as <-; left; reflexivity.
Qed.

Lemma c09_nodup_slot_bs s : (forall cl b, slot_get cl s = Some b -> class_of b = cl) -> NoDup (slot_bs s).
Proof.
  intro C. pose proof (C CDev) as C1. pose proof (C CStab) as C2. pose proof (C CHotfix) as C3.
  cbn in C1, C2, C3. unfold slot_bs, dev_b, stab_b, hf_b.
  (* whichever fields are filled: two equal entries would be one branch of two classes *)
  destruct (s_dev s) as [[db a]|], (s_stab s) as [sb|], (s_hf s) as [[hb r]|]; cbn [app option_map fst] in *.
  all: try specialize (C1 _ eq_refl); try specialize (C2 _ eq_refl); try specialize (C3 _ eq_refl).
  all: repeat constructor; cbn [In].
  all: intuition congruence.
Qed.

Lemma c09_nodup_all_b p dst c : Shape p dst c -> NoDup (all_b c).
Proof.
  intro Sh.
  assert (P : forall k s cl b, In (k, s) c -> slot_get cl s = Some b -> key_of b = k /\ class_of b = cl).
  { intros k s cl b Hin G. apply (sh_slot _ _ _ Sh _ _ _ _ Hin) in G. apply G. }
  assert (G : forall l, (forall e, In e l -> In e c) -> NoDup (keys l) -> NoDup (all_b l)).
  { induction l as [|[k s] t IH]; intros Sub NDl; cbn [all_b flat_map]; [constructor|].
    apply NoDup_cons_iff in NDl as [Hn NDt]. cbn [snd].
    pose proof (Sub _ (or_introl eq_refl)) as Hin.
    apply NoDup_app.
    - apply c09_nodup_slot_bs. intros cl b Gb. apply (P k s cl b Hin Gb).
    - apply IH; [intros e He; apply Sub; right; exact He | exact NDt].
    - intros b Hb Hb'. apply in_flat_map in Hb' as ([k' s'] & He' & Hb'). cbn [snd] in Hb'.
      apply c09_in_slot_bs in Hb as [cl Gb], Hb' as [cl' Gb'].
      destruct (P _ _ _ _ Hin Gb) as [K1 _].
      destruct (P _ _ _ _ (Sub _ (or_intror He')) Gb') as [K2 _].
      apply Hn. rewrite <- K1, K2. eapply c09_in_keys; exact He'. }
  apply G; [auto | exact (c09_shape_nodup _ _ _ Sh)].
Qed.

Definition keptb (dst : option branch) (b : branch) : bool := negb (hotfix_discarded b dst).

Lemma c09_all_b_perm p dst c : Shape p dst c -> NoDup p -> Permutation (all_b c) (filter (keptb dst) p).
Proof.
  intros Sh ND. apply NoDup_Permutation.
  - eapply c09_nodup_all_b; exact Sh.
  - apply NoDup_filter; exact ND.
  - intro b. rewrite filter_In. unfold all_b. rewrite in_flat_map. unfold keptb. rewrite negb_true_iff. split.
    + intros ([k s] & He & Hb). cbn [snd] in Hb. apply c09_in_slot_bs in Hb as [cl G].
      apply (sh_slot _ _ _ Sh _ _ _ _ He) in G as (I & K & _). auto.
    + intros [I K]. destruct (c09_shape_find _ _ _ _ Sh I K) as (s & Hs & Hh). exists (key_of b, s).
      split; [exact Hs | apply c09_in_slot_bs; eauto].
Qed.

(* the paths that start at the hotfix / stabilization branch of a slot with a development branch *)
Fixpoint new_paths (l : cascade) : list (list branch) :=
  match l with
  | [] => []
  | (k, s) :: t =>
      match s_dev s with
      | Some _ => map (fun b => b :: devs ((k, s) :: t)) (hf_b s ++ stab_b s) ++ new_paths t
      | None => new_paths t
      end
  end.

Lemma c09_merge_loop : forall l ret,
  merge_paths_loop l ret = map (fun p => p ++ devs l) ret ++ new_paths l.
Proof.
  induction l as [|[k s] t IH]; intro ret; cbn [merge_paths_loop new_paths].
  - unfold devs. cbn. rewrite app_nil_r. rewrite <- (map_id ret) at 1.
    apply map_ext. intro p. rewrite app_nil_r. reflexivity.
  - unfold devs at 1 2. cbn [flat_map snd]. fold (devs t). unfold dev_b at 1 2. unfold hf_b, stab_b.
    destruct (s_dev s) as [[db a]|] eqn:Fd; rewrite IH; [|reflexivity].
    (* ret, then [hb] and [sb] if there, each continued by db and the development branches above *)
    assert (E : forall r : list (list branch),
              map (fun p => p ++ devs t) (map (fun p => p ++ [db]) r) = map (fun p => p ++ [db] ++ devs t) r).
    { intro r. rewrite map_map. apply map_ext. intro p. rewrite <- app_assoc. reflexivity. }
    rewrite E. destruct (s_hf s) as [[hb r]|], (s_stab s) as [sb|]; cbn [app map].
    all: rewrite ?map_app, <- ?app_assoc; reflexivity.
Qed.

(* new_paths as a flat_map over the keys, given what each slot contributes in front of its suffix *)
Lemma c09_new_paths_flat (F : key -> list (list branch)) (c : cascade) :
  (forall pre k s t, c = pre ++ (k, s) :: t -> new_paths ((k, s) :: t) = F k ++ new_paths t) ->
  forall suf pre, c = pre ++ suf -> new_paths suf = flat_map F (keys suf).
Proof.
  intro H. induction suf as [|[k s] t IH]; intros pre E; [reflexivity|].
  cbn [keys map fst flat_map]. fold (keys t).
  rewrite (H pre k s t E), (IH (pre ++ [(k, s)])) by (rewrite <- app_assoc; exact E). reflexivity.
Qed.

Lemma c09_dev_slots_paths c : devs (dev_slots c) = devs c /\ new_paths (dev_slots c) = new_paths c.
Proof.
  unfold dev_slots, devs. induction c as [|[k s] t [IH1 IH2]]; [split; reflexivity|].
  cbn [filter]. destruct (occupied CDev (snd (k, s))) eqn:Hd; cbn [snd] in Hd; unfold occupied in Hd;
  destruct (s_dev s) as [[db a]|] eqn:F; try discriminate Hd.
  - cbn [flat_map snd new_paths]. rewrite F. unfold devs. cbn [flat_map snd]. rewrite IH1, IH2. split; reflexivity.
  - cbn [flat_map snd new_paths]. rewrite F. unfold dev_b at 2. rewrite F. split; [exact IH1 | exact IH2].
Qed.

Lemma c09_devs_lines p dst c (l : cascade) :
  Shape p dst c -> (forall e, In e l -> In e c /\ occupied CDev (snd e) = true) -> devs l = map dev_of_line (keys l).
Proof.
  intros Sh. unfold devs, keys. induction l as [|[k s] t IH]; intro H; [reflexivity|].
  cbn [flat_map map fst snd]. rewrite IH by (intros e He; apply H; right; exact He).
  destruct (H (k, s) (or_introl eq_refl)) as [Hin Hd]. cbn [snd] in Hd. unfold occupied in Hd. unfold dev_b.
  destruct (s_dev s) as [[db a]|] eqn:F; [|discriminate Hd].
  destruct (c09_shape_dev_slot _ _ _ _ _ _ _ Sh Hin F) as [-> _]. reflexivity.
Qed.

Lemma c09_in_stab_micros bs x y z : In z (stab_micros bs x y) <-> In (Stab x y z) bs.
Proof.
  unfold stab_micros. rewrite in_flat_map. split.
  - intros (b & Hb & Hz). destruct b as [| x' y' z' |]; try destruct Hz.
    destruct ((x' =? x) && (y' =? y)) eqn:E; [|destruct Hz]. destruct Hz as [<-|[]].
    apply andb_true_iff in E as [E1 E2]. apply Z.eqb_eq in E1, E2. subst. exact Hb.
  - intro H. exists (Stab x y z). split; [exact H|]. rewrite !Z.eqb_refl. left; reflexivity.
Qed.

Lemma c09_nodup_stab_micros bs x y : NoDup bs -> NoDup (stab_micros bs x y).
Proof.
  unfold stab_micros. induction 1 as [|b t Hn ND IH]; cbn [flat_map]; [constructor|].
  destruct b as [| x' y' z' |]; cbn [app]; try exact IH.
  destruct ((x' =? x) && (y' =? y)) eqn:E; cbn [app]; [|exact IH].
  apply andb_true_iff in E as [E1 E2]. apply Z.eqb_eq in E1, E2. subst.
  constructor; [|exact IH]. intro H. apply Hn. apply (c09_in_stab_micros t x y z'). exact H.
Qed.

Lemma c09_stab_micros_slot p dst c x y s :
  Shape p dst c -> NoDup p -> In ((x, Some y), s) c ->
  stab_micros p x y = map micro_of (stab_b s) /\ stab_b s = map (fun z => Stab x y z) (stab_micros p x y).
Proof.
  intros Sh ND Hin.
  assert (Held : forall z, In z (stab_micros p x y) -> s_stab s = Some (Stab x y z)).
  { intros z I. apply c09_in_stab_micros in I. exact (c09_shape_holds _ _ _ (Stab x y z) s Sh I eq_refl Hin). }
  pose proof (c09_nodup_stab_micros p x y ND) as NDm.
  unfold stab_b. destruct (s_stab s) as [sb|] eqn:F.
  - destruct (c09_shape_stab_slot _ _ _ _ _ _ Sh Hin F) as (x' & y' & z & [= <- <-] & -> & I).
    apply (c09_in_stab_micros p x y z) in I.
    destruct (stab_micros p x y) as [|z1 [|z2 t]]; [destruct I | |].
    + destruct I as [->|[]]. split; reflexivity.
    + apply NoDup_cons_iff in NDm as [Hn _]. destruct Hn.
      pose proof (Held z1 (or_introl eq_refl)) as E1. pose proof (Held z2 (or_intror (or_introl eq_refl))) as E2.
      left. congruence.
  - destruct (stab_micros p x y) as [|z t]; [split; reflexivity|]. discriminate (Held z (or_introl eq_refl)).
Qed.

Lemma c09_shape_hf_slot bs dst c k s : Shape bs (Some dst) c -> In dst bs -> In (k, s) c ->
  hf_b s = if is_hotfix dst && key_eqb (key_of dst) k then [dst] else [].
Proof.
  intros Sh I Hin. assert (E : hf_b s = match slot_get CHotfix s with Some b => [b] | None => [] end)
    by (unfold hf_b; cbn; destruct (s_hf s) as [[? ?]|]; reflexivity).
  rewrite E. destruct (is_hotfix dst && key_eqb (key_of dst) k) eqn:C.
  - apply andb_true_iff in C as [H C]. apply c09_key_eqb_eq in C. subst k. destruct dst; try discriminate H.
    rewrite (c09_shape_holds _ _ _ _ _ Sh I (c09_kept_self _) Hin : slot_get CHotfix s = _). reflexivity.
  - destruct (slot_get CHotfix s) as [hb|] eqn:G; [|reflexivity].
    destruct (c09_shape_hotfix _ _ _ _ _ _ Sh Hin G) as (_ & <- & H). rewrite H, c09_key_eqb_refl in C. discriminate C.
Qed.

Lemma c09_merge_paths_spec bs dst c :
  Shape bs (Some dst) c -> NoDup bs -> In dst bs -> get_merge_paths c = merge_paths bs dst.
Proof.
  intros Sh ND Idst. unfold get_merge_paths, merge_paths. rewrite c09_merge_loop. cbn [map app].
  destruct (c09_dev_slots_paths c) as [<- <-].
  rewrite <- (c09_dev_slots_lines _ _ _ Sh ND).
  assert (Sub : forall e, In e (dev_slots c) -> In e c /\ occupied CDev (snd e) = true)
    by (intros e He; apply filter_In in He; exact He).
  f_equal; [apply (c09_devs_lines _ _ _ _ Sh Sub)|].
  assert (Sorted : StronglySorted llt (keys (dev_slots c))) by (apply (StronglySorted_map_filter llt fst), Sh).
  apply (c09_new_paths_flat _ (dev_slots c)) with (pre := []); [|reflexivity]. intros pre k s t E.
  assert (He : In (k, s) (dev_slots c)) by (rewrite E; apply in_app_iff; right; left; reflexivity).
  destruct (Sub _ He) as [Hin Hd]. cbn [snd] in Hd. unfold occupied in Hd. cbn [new_paths].
  destruct (s_dev s) as [[db a]|] eqn:Fd; [|discriminate Hd]. f_equal.
  assert (From : filter (line_le k) (keys (dev_slots c)) = keys ((k, s) :: t)).
  { unfold keys in *. rewrite E, map_app in *. apply c09_filter_from. exact Sorted. }
  rewrite From, (c09_devs_lines _ _ _ ((k, s) :: t) Sh)
    by (intros e He'; apply Sub; rewrite E; apply in_app_iff; right; exact He').
  rewrite (c09_shape_hf_slot _ _ _ _ _ Sh Idst Hin). destruct k as [x [y|]]; cbn [snd fst].
  - rewrite map_app. f_equal.
    + destruct dst as [| |dx dy dz]; try reflexivity. unfold key_eqb. cbn.
      destruct ((dx =? x) && (dy =? y)); reflexivity.
    + destruct (c09_stab_micros_slot _ _ _ _ _ _ Sh ND Hin) as [_ ->]. rewrite map_map. reflexivity.
  - assert (Es : stab_b s = []).
    { unfold stab_b. destruct (s_stab s) as [sb|] eqn:Fs; [|reflexivity].
      destruct (c09_shape_stab_slot _ _ _ _ _ _ Sh Hin Fs) as (? & ? & ? & [=] & _). }
    rewrite Es. destruct dst; try reflexivity. unfold key_eqb. cbn. rewrite andb_false_r. reflexivity.
Qed.

Lemma c09_build_to_finalize order bs tags dst :
  Permutation order bs -> NoDup bs ->
  (two_stabs bs = true /\ build order tags dst = Err UnsupportedMultipleStabBranches) \/
  (two_stabs bs = false /\ exists c0, Shape bs (Some dst) c0 /\ Fresh c0 /\
     build order tags dst =
     if existsb (fun t => dep_at t c0) (release_tags tags) then Err DeprecatedStabilizationBranch
     else finalize (map_slots (final_slot (release_tags tags) (keys c0)) c0) dst).
Proof.
  intros P ND. assert (NDo : NoDup order) by (eapply Permutation_NoDup; [symmetry|]; eassumption).
  unfold build, build_parsed. rewrite c09_release_tags_somes.
  destruct (c09_add_all_result order (Some dst) NDo) as [[T ->]|(T & c0 & -> & Sh & Fr)];
  rewrite (c09_two_stabs_perm _ _ P) in T.
  - left. split; [exact T | reflexivity].
  - right. split; [exact T|]. exists c0.
    pose proof (c09_shape_perm _ _ _ _ P Sh) as Shb.
    split; [exact Shb|]. split; [exact Fr|]. cbn [bind].
    rewrite (c09_update_all_closed _ c0 (c09_shape_nodup _ _ _ Shb)).
    destruct (existsb (fun t => dep_at t c0) (somes (map parse_tag tags))); [reflexivity|]. cbn [bind].
    rewrite c09_update_major_closed.
    + cbn [bind]. rewrite c09_keys_map_slots, c09_map_slots_map_slots. reflexivity.
    + intros k s Hin. eapply c09_shape_major_has_dev; [|exact Hin].
      apply c09_shape_map_slots; [intros; apply c09_tags_slot_desc | exact Shb].
Qed.

Lemma c09_in_released_patches ts x y z : In z (released_patches ts x y) <-> exists h, In (x, y, z, h) ts.
Proof.
  unfold released_patches. rewrite in_flat_map. split.
  - intros ([[[x' y'] z'] h] & Ht & Hz). destruct ((x' =? x) && (y' =? y)) eqn:E; [|destruct Hz].
    destruct Hz as [<-|[]]. apply andb_true_iff in E as [E1 E2]. apply Z.eqb_eq in E1, E2. subst. eauto.
  - intros [h Ht]. exists (x, y, z, h). split; [exact Ht|]. rewrite !Z.eqb_refl. left; reflexivity.
Qed.

Lemma c09_dep_spec bs dst c ts :
  Shape bs (Some dst) c -> In dst bs ->
  existsb (fun t => dep_at t c) ts = released_stab bs ts dst.
Proof.
  intros Sh Idst. pose proof (c09_shape_nodup _ _ _ Sh) as NDk. apply eq_true_iff_eq.
  unfold released_stab. rewrite !existsb_exists. split.
  - intros ([[[x y] z'] h] & Ht & D). unfold dep_at in D.
    destruct (lookup (x, Some y) c) as [s|] eqn:L; [|discriminate D]. apply c09_lookup_some_in in L.
    unfold dep_slot in D. destruct (slot_get CStab s) as [sb|] eqn:Fs; [|destruct (slot_get CHotfix s); discriminate D].
    destruct (c09_shape_stab_slot _ _ _ _ _ _ Sh L Fs) as (sx & sy & z & [= <- <-] & -> & I).
    exists (Stab x y z). split; [exact I|]. apply orb_true_iff in D as [D|D]; apply orb_true_iff.
    + right. destruct (slot_get CHotfix s) as [hb|] eqn:Fh; [|discriminate D].
      destruct (c09_shape_hotfix _ _ _ _ _ _ Sh L Fh) as (-> & Kk & Hh).
      destruct dst as [| |hx hy hz]; try discriminate Hh. cbn in Kk. injection Kk as -> ->.
      cbn [micro_of] in D. apply Z.eqb_eq in D. subst hz. rewrite c09_branch_eqb_refl. cbn [andb].
      assert (Hz : In z' (released_patches ts x y)) by (apply c09_in_released_patches; eauto).
      destruct (released_patches ts x y); [destruct Hz | reflexivity].
    + left. apply existsb_exists. exists z'. split; [apply c09_in_released_patches; eauto | exact D].
  - intros (b & Ib & D). destruct b as [| x y z |]; try discriminate D.
    destruct (c09_shape_find _ _ _ _ Sh Ib eq_refl) as (s & Hs & Hh). unfold key_of in Hs. cbn in Hs. cbn [class_of] in Hh.
    apply orb_true_iff in D as [D|D].
    + apply existsb_exists in D as (z' & Hz' & Le). apply c09_in_released_patches in Hz' as [h Ht].
      exists (x, y, z', h). split; [exact Ht|]. unfold dep_at. rewrite (c09_in_lookup _ _ _ NDk Hs).
      unfold dep_slot. rewrite Hh. cbn [micro_of]. rewrite Le. apply orb_true_r.
    + apply andb_true_iff in D as [E NE]. apply c09_branch_eqb_eq in E. subst dst.
      destruct (released_patches ts x y) as [|z' r] eqn:R; [discriminate NE|].
      assert (Hz' : In z' (released_patches ts x y)) by (rewrite R; left; reflexivity).
      apply c09_in_released_patches in Hz' as [h Ht].
      exists (x, y, z', h). split; [exact Ht|]. unfold dep_at. rewrite (c09_in_lookup _ _ _ NDk Hs).
      unfold dep_slot. rewrite Hh, (c09_shape_holds _ _ _ (Hotfix x y z) _ Sh Idst (c09_kept_self _) Hs : slot_get CHotfix s = _).
      cbn [micro_of]. rewrite Z.eqb_refl. reflexivity.
Qed.

Lemma c09_released_stab_false bs ts dst x y z :
  released_stab bs ts dst = false -> In (Stab x y z) bs -> forall z', In z' (released_patches ts x y) -> z' < z.
Proof.
  intros R I z' Hz'. destruct (Z.lt_ge_cases z' z) as [L|G]; [exact L|]. exfalso.
  assert (T : released_stab bs ts dst = true); [|congruence].
  unfold released_stab. apply existsb_exists. exists (Stab x y z). split; [exact I|].
  apply orb_true_iff. left. apply existsb_exists. exists z'. split; [exact Hz' | apply Z.leb_le; exact G].
Qed.

Lemma c09_orphan_slot bs dst c :
  Shape bs dst c -> orphan_stab bs = true -> exists k s, In (k, s) c /\ s_dev s = None /\ s_stab s <> None.
Proof.
  intros Sh O. unfold orphan_stab in O. apply existsb_exists in O as (b & Ib & O).
  destruct b as [| x y z |]; try discriminate O. apply negb_true_iff in O.
  destruct (c09_shape_find _ _ _ _ Sh Ib eq_refl) as (s & Hs & Hh). exists (key_of (Stab x y z)), s.
  split; [exact Hs|]. cbn in Hh. split; [|congruence].
  destruct (s_dev s) as [[db a]|] eqn:F; [|reflexivity]. exfalso.
  destruct (c09_shape_dev_slot _ _ _ _ _ _ _ Sh Hs F) as [_ I]. cbn in I.
  apply c09_mem_in in I. unfold dev_of_line in I. cbn in I. congruence.
Qed.

Lemma c09_no_orphan_dev bs dst c k s :
  Shape bs dst c -> orphan_stab bs = false -> In (k, s) c -> s_stab s <> None -> s_dev s <> None.
Proof.
  intros Sh O Hin Fs Fd. destruct (s_stab s) as [sb|] eqn:F; [|contradiction]. clear Fs.
  destruct (c09_shape_stab_slot _ _ _ _ _ _ Sh Hin F) as (x & y & z & -> & -> & I).
  assert (M : In (Dev x (Some y)) bs).
  { apply c09_mem_in. destruct (mem (Dev x (Some y)) bs) eqn:M; [reflexivity|].
    assert (T : orphan_stab bs = true); [|congruence]. unfold orphan_stab. apply existsb_exists.
    exists (Stab x y z). split; [exact I|]. rewrite M. reflexivity. }
  pose proof (c09_shape_holds _ _ _ _ _ Sh M eq_refl Hin) as G. cbn in G. rewrite Fd in G. discriminate G.
Qed.

Lemma c09_slot_kinds bs dst c k s :
  Shape bs dst c -> orphan_stab bs = false -> In (k, s) c ->
  s_dev s <> None \/ (s_stab s = None /\ s_hf s <> None).
Proof.
  intros Sh O Hin. destruct (s_dev s) eqn:Fd; [left; discriminate|]. right.
  destruct (s_stab s) eqn:Fs; [destruct (c09_no_orphan_dev _ _ _ _ _ Sh O Hin); [rewrite Fs; discriminate | exact Fd]|].
  split; [reflexivity|]. destruct (c09_shape_nonempty _ _ _ _ _ Sh Hin) as ([| |] & b & Gb); cbn in Gb;
  rewrite ?Fd, ?Fs in Gb; try discriminate Gb. destruct (s_hf s); discriminate.
Qed.

Lemma c09_finalize_orphan bs dst c :
  Shape bs (Some dst) c -> orphan_stab bs = true -> finalize c dst = Err DevBranchDoesNotExist.
Proof.
  intros Sh O. unfold finalize. rewrite c09_loop_err; [reflexivity | |].
  - exact (c09_orphan_slot _ _ _ Sh O).
  - intros k s Hin Fd E. exact (c09_shape_major_has_dev _ _ _ _ _ Sh Hin E Fd).
Qed.

Lemma c09_max_list_lt d l z : d < z -> (forall z', In z' l -> z' < z) -> max_list d l < z.
Proof.
  intros Hd H. unfold max_list. induction l as [|a t IH]; cbn [fold_right]; [exact Hd|].
  apply Z.max_lub_lt; [apply H; left; reflexivity | apply IH; intros; apply H; right; assumption].
Qed.

(* the fix version the code derives for a development branch that is a target and whose stabilization
   branch (if any) is not: the next unreleased patch, one more when the stabilization holds exactly that one *)
Lemma c09_slot_version bs ts dst c k s :
  Shape bs (Some dst) c -> Attrs ts (keys c) c -> NoDup bs -> In (k, s) c -> s_dev s <> None ->
  keys c = sort_lines (dev_lines bs) ->
  (forall x y z, dst = Stab x y z -> k <> (x, Some y)) ->
  slot_versions false k (mkSlot (mark_dev s) None None) = Ok (target_version bs ts dst (dev_of_line k)).
Proof.
  intros Sh At ND Hin Fd KL NotStab.
  destruct (s_dev s) as [[db a]|] eqn:F; [|contradiction]. clear Fd.
  destruct (c09_shape_dev_slot _ _ _ _ _ _ _ Sh Hin F) as [-> Idb].
  destruct (At _ _ Hin) as [A1 _]. rewrite (A1 _ _ F) in F. clear A1.
  destruct k as [x [y|]]; unfold dev_of_line in *; cbn [fst snd] in *; unfold slot_versions, mark_dev; rewrite F;
  cbn [s_hf s_stab s_dev minor_of bind app].
  - (* development/x.y *)
    assert (TV : target_version bs ts dst (Dev x (Some y)) = [[x; y; next_patch bs ts x y]]).
    { cbn [target_version]. destruct dst as [| x' y' z' |]; try reflexivity.
      destruct ((x' =? x) && (y' =? y)) eqn:E; [|reflexivity].
      apply andb_true_iff in E as [E1 E2]. apply Z.eqb_eq in E1, E2. subst. destruct (NotStab x y z'); reflexivity. }
    rewrite TV. unfold next_patch.
    destruct (c09_stab_micros_slot _ _ _ _ _ _ Sh ND Hin) as [SM _]. rewrite SM. unfold stab_b.
    unfold micro_final, rel_patches. cbn [fst snd]. rewrite c09_next_after_max_list.
    destruct (s_stab s) as [sb|] eqn:Fs; cbn [map existsb da_has_stab da_micro da_stab_micro orb andb].
    + rewrite (Z.eqb_sym (micro_of sb)). rewrite orb_false_r. reflexivity.
    + reflexivity.
  - (* development/x *)
    assert (Fs : s_stab s = None).
    { destruct (s_stab s) as [sb|] eqn:Fs; [|reflexivity].
      destruct (c09_shape_stab_slot _ _ _ _ _ _ Sh Hin Fs) as (? & ? & ? & [=] & _). }
    rewrite Fs. cbn [target_version da_latest_minor da_micro]. do 4 f_equal.
    unfold lminor_final, rel_minors, next_minor. cbn [snd fst major_of da_latest_minor da_micro].
    rewrite c09_next_after_max_list, c09_max_list_app. f_equal.
    rewrite KL. apply c09_max_list_perm. apply (Permutation_flat_map _ (c09_isort_perm key line_le (dev_lines bs))).
Qed.

Lemma c09_versions_kept bs ts dst (l : cascade) :
  (forall k s, In (k, s) l ->
     slot_versions false k (mkSlot (mark_dev s) None None) = Ok (target_version bs ts dst (dev_of_line k))) ->
  set_target_versions false (map kept_slot l) =
  Ok (flat_map (fun e => target_version bs ts dst (dev_of_line (fst e))) l).
Proof.
  induction l as [|[k s] t IH]; intro H; [reflexivity|].
  cbn [map kept_slot set_target_versions fst snd flat_map]. rewrite (H k s (or_introl eq_refl)). cbn [bind].
  fold kept_slot. rewrite IH by (intros k0 s0 Hin; apply H; right; exact Hin). reflexivity.
Qed.

Lemma c09_targets_split bs dst K1 K2 :
  sort_lines (dev_lines bs) = K1 ++ key_of dst :: K2 -> StronglySorted llt (K1 ++ key_of dst :: K2) ->
  is_hotfix dst = false ->
  targets bs dst =
  dst :: map dev_of_line ((if branch_eqb (dev_of_line (key_of dst)) dst then [] else [key_of dst]) ++ K2).
Proof.
  intros E S H. unfold targets. rewrite H. f_equal. f_equal.
  rewrite c09_sort_lines_isort, (c09_isort_filter key line_le c09_line_le_total c09_line_le_trans c09_line_le_antisym).
  rewrite <- c09_sort_lines_isort, E, <- filter_filter, (c09_filter_from _ _ _ S). cbn [filter app].
  destruct (StronglySorted_app_inv _ _ _ _ S) as [_ F2]. rewrite Forall_forall in F2.
  rewrite (filter_all _ K2); [destruct (branch_eqb (dev_of_line (key_of dst)) dst); reflexivity|].
  intros k Hk. apply negb_true_iff. apply not_true_is_false. intro B. apply c09_branch_eqb_eq in B.
  specialize (F2 k Hk). unfold llt in F2. rewrite <- B in F2. destruct k. unfold key_of, dev_of_line in F2.
  cbn [major_of minor_of fst snd] in F2. rewrite c09_line_lt_irrefl in F2. discriminate F2.
Qed.

Lemma c09_dst_in_targets bs dst : In dst (targets bs dst).
Proof. unfold targets. destruct (is_hotfix dst); left; reflexivity. Qed.

(* on development and stabilization branches the == of the code is equality *)
Lemma c09_branch_eq_eq a b : branch_eq a b = true -> a = b.
Proof. destruct a, b; try discriminate; intro H; apply c09_branch_eqb_eq; exact H. Qed.

Lemma c09_branch_eq_refl a : is_hotfix a = false -> branch_eq a a = true.
Proof. destruct a; [intros _; apply (c09_branch_eqb_refl (Dev _ _)) | intros _; apply (c09_branch_eqb_refl (Stab _ _ _)) | discriminate]. Qed.

Definition nt (T : list branch) (b : branch) : bool := negb (mem b T).

Lemma c09_perm_minus (A B l : list branch) : NoDup l -> Permutation (A ++ B) l -> Permutation A (filter (nt B) l).
Proof.
  intros ND P. assert (NDab : NoDup (A ++ B)) by (eapply Permutation_NoDup; [symmetry; exact P | exact ND]).
  apply NoDup_app_iff in NDab as (_ & _ & D).
  transitivity (filter (nt B) (A ++ B)); [|apply Permutation_filter; exact P].
  rewrite filter_app, filter_all, filter_none, app_nil_r; [reflexivity | |].
  - intros b Hb. apply negb_false_iff, c09_mem_in. exact Hb.
  - intros b Hb. apply negb_true_iff, not_true_is_false. intro M. apply c09_mem_in in M. exact (D b Hb M).
Qed.

Lemma c09_all_b_split l : Permutation (all_b l) (devs l ++ stabs l ++ flat_map (fun e => hf_b (snd e)) l).
Proof.
  unfold all_b, slot_bs, devs, stabs.
  rewrite (Permutation_flat_map_app (fun e => dev_b (snd e)) (fun e => stab_b (snd e) ++ hf_b (snd e))).
  apply Permutation_app_head. apply (Permutation_flat_map_app (fun e => stab_b (snd e)) (fun e => hf_b (snd e))).
Qed.

Lemma c09_ignored_spec bs dst c IG :
  Shape bs (Some dst) c -> NoDup bs -> Permutation (IG ++ targets bs dst) (all_b c) ->
  sort_names (map name_of IG) = ignored bs dst.
Proof.
  intros Sh ND P. unfold ignored. apply c09_sort_names_perm, Permutation_map.
  rewrite (c09_perm_minus _ _ _ (c09_nodup_all_b _ _ _ Sh) P).
  rewrite (Permutation_filter _ _ _ (c09_all_b_perm _ _ _ Sh ND)), filter_filter.
  erewrite filter_ext_in; [reflexivity|]. intros b Ib. cbn beta. unfold nt, keptb.
  destruct b as [x y|x y z|x y z]; try reflexivity. cbn [is_hotfix negb andb].
  destruct (hotfix_discarded (Hotfix x y z) (Some dst)) eqn:K; [reflexivity|].
  apply c09_kept_hotfix in K. subst dst. cbn [negb andb]. apply negb_false_iff, c09_mem_in, c09_dst_in_targets.
Qed.

Lemma c09_dst_matches s db a dst :
  s_dev s = Some (db, a) -> is_hotfix dst = false -> slot_get (class_of dst) s = Some dst ->
  branch_eq dst db || existsb (branch_eq dst) (stab_b s) = true.
Proof.
  intros Fd Hh G. pose proof (c09_branch_eq_refl dst Hh) as R. unfold stab_b.
  destruct dst; [| |discriminate Hh]; cbn [class_of slot_get] in G.
  - rewrite Fd in G. injection G as ->. rewrite R. reflexivity.
  - rewrite G. cbn [existsb]. rewrite R. apply orb_true_r.
Qed.

Lemma c09_nonhf_cascade bs dst c :
  Shape bs (Some dst) c -> NoDup bs -> is_hotfix dst = false -> orphan_stab bs = false ->
  (forall k s, In (k, s) c -> good_slot s) /\ keys c = sort_lines (dev_lines bs).
Proof.
  intros Sh ND Hh O.
  assert (G : forall k s, In (k, s) c -> good_slot s).
  { intros k s Hin. assert (Fh : s_hf s = None).
    { destruct (s_hf s) as [[hb r]|] eqn:F; [|reflexivity].
      destruct (c09_shape_hotfix _ _ _ _ _ hb Sh Hin) as (_ & _ & E); [cbn; rewrite F; reflexivity | congruence]. }
    split; [|exact Fh]. destruct (c09_slot_kinds _ _ _ _ _ Sh O Hin) as [D|[_ H]]; [exact D | contradiction]. }
  split; [exact G|]. rewrite <- (c09_dev_slots_lines _ _ _ Sh ND). unfold dev_slots. rewrite filter_all; [reflexivity|].
  intros [k s] Hin. destruct (G k s Hin) as [Gd _]. unfold occupied. cbn [snd]. destruct (s_dev s); [reflexivity | contradiction].
Qed.

Lemma c09_finalize_nonhf bs ts dst c :
  Shape bs (Some dst) c -> Attrs ts (keys c) c -> NoDup bs -> In dst bs -> is_hotfix dst = false ->
  orphan_stab bs = false ->
  observe (finalize c dst) =
  Ok (mkSpec (targets bs dst) (ignored bs dst) (flat_map (target_version bs ts dst) (targets bs dst))
             (merge_paths bs dst)).
Proof.
  intros Sh At ND Idst Hh O. destruct (c09_nonhf_cascade _ _ _ Sh ND Hh O) as [G KL].
  assert (Hf : forall k s, In (k, s) c -> s_hf s = None) by (intros k s Hin; apply (G k s Hin)).
  assert (HD : forall k s, In (k, s) c -> occupied CDev s = true).
  { intros k s Hin. destruct (G k s Hin) as [Gd _]. unfold occupied. destruct (s_dev s); [reflexivity | contradiction]. }
  destruct (c09_shape_find _ _ _ _ Sh Idst (c09_kept_self dst)) as (s0 & Hs0 & Hh0).
  set (k0 := key_of dst) in *.
  destruct (c09_split_at c k0 s0 (sh_sorted _ _ _ Sh) Hs0) as (l1 & l2 & Ec & S & Inl).
  (* a branch stored under another release line is not == the destination *)
  assert (NM : forall k s, In (k, s) l1 ->
            good_slot s /\ forall cl b, slot_get cl s = Some b -> branch_eq dst b = false).
  { intros k s Hin. destruct (Inl k s (or_introl Hin)) as [Hc Nk]. split; [apply (G k s Hc)|].
    intros cl b Gb. apply not_true_is_false. intro B. apply c09_branch_eq_eq in B. subst b.
    apply (sh_slot _ _ _ Sh _ _ _ _ Hc) in Gb as (_ & _ & Kk & _). exact (Nk (eq_sym Kk)). }
  assert (Sub2 : forall k s, In (k, s) l2 -> In (k, s) c) by (intros k s He; apply (Inl k s (or_intror He))).
  destruct (G k0 s0 Hs0) as [Gd0 Gh0].
  destruct (s_dev s0) as [[db0 a0]|] eqn:Fd0; [|contradiction]. clear Gd0.
  destruct (c09_shape_dev_slot _ _ _ _ _ _ _ Sh Hs0 Fd0) as [-> _].
  unfold finalize. rewrite c09_dst_hf_flag, Hh, (c09_merge_paths_spec _ _ _ Sh ND Idst), Ec.
  rewrite (c09_loop_split dst l1 k0 s0 l2 _ a0 false NM Fd0 Gh0 (fun k s H => G k s (Sub2 k s H))
             (c09_dst_matches _ _ _ _ Fd0 Hh Hh0)).
  cbn [fst snd f_ignored f_dst f_rem bind negb andb].
  set (f1 := branch_eq dst (dev_of_line k0)) in *.
  (* the fix version of every slot above the destination *)
  assert (SV : forall k s, In (k, s) l2 ->
     slot_versions false k (mkSlot (mark_dev s) None None) = Ok (target_version bs ts dst (dev_of_line k))).
  { intros k s Hin. destruct (Inl k s (or_intror Hin)) as (Hc & Nk).
    apply (c09_slot_version bs ts dst c k s Sh At ND Hc (proj1 (G k s Hc)) KL).
    intros x y z -> E. apply Nk. rewrite E. reflexivity. }
  assert (E : (if f1 then [] else stab_b s0) ++ dev_of_line k0 :: devs l2 = targets bs dst /\
              set_target_versions false
                ((k0, mkSlot (mark_dev s0) (if f1 then None else s_stab s0) None) :: map kept_slot l2) =
              Ok (flat_map (target_version bs ts dst) (targets bs dst))).
  { rewrite (c09_targets_split bs dst (keys l1) (keys l2)) by (try assumption; rewrite <- KL, Ec; apply map_app).
    fold k0. cbn [flat_map]. rewrite flat_map_map. unfold keys. rewrite flat_map_app, flat_map_map.
    rewrite (c09_devs_lines _ _ _ l2 Sh) by (intros [k s] He; split; [|apply (HD k s)]; apply (Sub2 k s He)).
    pose proof (c09_branch_eq_refl dst Hh) as Mdd. unfold stab_b. subst f1.
    destruct dst as [x0 y0|x0 y0 z0|]; [| |discriminate Hh]; cbn [class_of slot_get] in Hh0.
    - change (dev_of_line k0) with (Dev x0 y0). rewrite Mdd, c09_branch_eqb_refl. split; [reflexivity|].
      refine (eq_trans (c09_versions_kept bs ts (Dev x0 y0) ((k0, s0) :: l2) _) eq_refl).
      intros k s [[= <- <-]|Hin]; [|apply SV; exact Hin].
      apply (c09_slot_version bs ts _ c k0 s0 Sh At ND Hs0); [congruence | exact KL | discriminate].
    - rewrite Hh0. split; [reflexivity|]. cbn [set_target_versions]. rewrite (c09_versions_kept bs ts _ l2 SV).
      unfold slot_versions. cbn [branch_eq branch_eqb dev_of_line s_hf s_stab s_dev].
      cbn [fst snd k0 key_of major_of minor_of micro_of bind app flat_map target_version].
      change (dev_of_line k0) with (Dev x0 (Some y0)). cbn [target_version]. rewrite !Z.eqb_refl. reflexivity. }
  destruct E as [Edst Ever]. rewrite Edst, Ever. erewrite (c09_ignored_spec bs dst c _ Sh ND); [reflexivity|].
  (* every branch of the cascade is ignored or a target *)
  rewrite <- Edst.
  rewrite Ec. unfold all_b at 1. rewrite flat_map_app. cbn [flat_map snd]. fold (all_b l2).
  rewrite (flat_map_ext_in (fun e => slot_bs (snd e)) (fun e => dev_b (snd e) ++ stab_b (snd e)) l1).
  2:{ intros [k s] He. unfold slot_bs, hf_b. cbn [snd]. rewrite (Hf k s (proj1 (Inl k s (or_introl He)))), app_nil_r. reflexivity. }
  rewrite <- app_assoc. apply Permutation_app_head.
  rewrite (c09_all_b_split l2), (proj2 (flat_map_nil_iff _ l2)), app_nil_r
    by (intros [k s] He; unfold hf_b; cbn [snd]; rewrite (Hf k s (Sub2 _ _ He)); reflexivity).
  unfold slot_bs, dev_b at 1, hf_b. rewrite Fd0, Gh0, app_nil_r. cbn [app].
  destruct f1; cbn [app]; rewrite ?app_nil_r.
  - rewrite (Permutation_app_comm (devs l2)), app_assoc. symmetry. apply Permutation_middle.
  - rewrite (Permutation_app_comm (devs l2)), (app_assoc (stab_b s0)), (Permutation_app_comm (stab_b s0) (stabs l2)),
      (app_assoc (stabs l2) (stab_b s0)). symmetry. apply Permutation_middle.
Qed.

Lemma c09_finalize_hf bs ts dst c :
  Shape bs (Some dst) c -> Attrs ts (keys c) c -> NoDup bs -> In dst bs -> is_hotfix dst = true ->
  orphan_stab bs = false ->
  observe (finalize c dst) =
  Ok (mkSpec (targets bs dst) (ignored bs dst) (flat_map (target_version bs ts dst) (targets bs dst))
             (merge_paths bs dst)).
Proof.
  intros Sh At ND Idst Hh O.
  assert (HB : forall k s hb r, In (k, s) c -> s_hf s = Some (hb, r) -> hb = dst /\ k = key_of dst).
  { intros k s hb r Hin F. destruct (c09_shape_hotfix _ _ _ _ _ hb Sh Hin) as (-> & <- & _); [cbn; rewrite F|]; auto. }
  assert (OK : forall k s, In (k, s) c -> hf_ok dst s).
  { intros k s Hin. split; [exact (c09_slot_kinds _ _ _ _ _ Sh O Hin) | intros hb r F; apply (HB k s hb r Hin F)]. }
  destruct (c09_shape_find _ _ _ _ Sh Idst (c09_kept_self dst)) as (s0 & Hs0 & Hh0).
  destruct (c09_loop_hf dst c false Hh OK) as [last' EL].
  destruct dst as [| |x0 y0 z0]; try discriminate Hh. set (dst := Hotfix x0 y0 z0) in *.
  cbn in Hh0. destruct (s_hf s0) as [[hb0 r0]|] eqn:Fh0; [injection Hh0 as ->|discriminate Hh0]. set (k0 := key_of dst) in *.
  destruct (c09_split_at c k0 s0 (sh_sorted _ _ _ Sh) Hs0) as (l1 & l2 & Ec & _ & Inl).
  assert (Oth : forall e, In e l1 \/ In e l2 -> s_hf (snd e) = None).
  { intros [k s] Hin. cbn [snd]. destruct (s_hf s) as [[hb r]|] eqn:F; [|reflexivity].
    destruct (Inl k s Hin) as [Hc Nk]. destruct (HB k s hb r Hc F) as [_ E]. contradiction. }
  destruct (At _ _ Hs0) as [_ A2]. pose proof (A2 _ _ Fh0) as Er0.
  unfold finalize. rewrite c09_dst_hf_flag. cbn [is_hotfix dst]. fold dst.
  rewrite EL, (c09_merge_paths_spec _ _ _ Sh ND Idst).
  cbn [bind negb f_rem f_dst f_ignored]. rewrite andb_false_r.
  assert (Edst : flat_map (fun e => hf_b (snd e)) c = [dst]).
  { rewrite Ec, flat_map_single; [unfold hf_b; cbn [snd]; rewrite Fh0; reflexivity|].
    intros e He. unfold hf_b. rewrite (Oth e He). reflexivity. }
  assert (Erem : flat_map (fun e => match s_hf (snd e) with
                                    | Some _ => [(fst e, mkSlot None None (s_hf (snd e)))]
                                    | None => []
                                    end) c = [(k0, mkSlot None None (Some (dst, r0)))]).
  { rewrite Ec, flat_map_single; [cbn [snd fst]; rewrite Fh0; reflexivity|].
    intros e He. rewrite (Oth e He). reflexivity. }
  rewrite Erem. cbn [set_target_versions]. unfold slot_versions.
  cbn [s_hf s_stab s_dev fst snd k0 dst key_of major_of minor_of micro_of bind app].
  cbn [observe o_dst o_ignored o_versions o_paths]. f_equal.
  assert (TS : targets bs dst = [dst]) by reflexivity. rewrite TS, Edst. f_equal.
  - apply (c09_ignored_spec _ _ c _ Sh ND). rewrite TS, <- Edst, (c09_all_b_split c).
    rewrite (Permutation_flat_map_app (fun e => stab_b (snd e)) (fun e => dev_b (snd e))).
    rewrite app_assoc. apply Permutation_app_tail, Permutation_app_comm.
  - cbn [flat_map target_version dst app]. rewrite Er0. reflexivity.
Qed.

(* the statement of C09 for one input *)
Definition c09_agrees (order bs : list branch) (tags : list string) (dst : branch) : Prop :=
  observe (build order tags dst) = spec bs (release_tags tags) dst.

Definition C09_full : Prop :=
  forall order bs tags dst, Permutation order bs -> NoDup bs -> In dst bs -> c09_agrees order bs tags dst.

Theorem c09_full_proof : C09_full.
Proof.
  intros order bs tags dst P ND Idst. unfold c09_agrees, spec.
  destruct (c09_build_to_finalize order bs tags dst P ND) as [[T ->]|(T & c0 & Sh & Fr & ->)]; rewrite T; [reflexivity|].
  rewrite (c09_dep_spec _ _ _ _ Sh Idst).
  destruct (released_stab bs (release_tags tags) dst) eqn:R; [reflexivity|].
  set (ts := release_tags tags) in *. set (c2 := map_slots (final_slot ts (keys c0)) c0).
  assert (Sh2 : Shape bs (Some dst) c2) by (apply c09_shape_map_slots; [intros; apply c09_final_slot_desc | exact Sh]).
  assert (At2 : Attrs ts (keys c2) c2).
  { unfold c2. rewrite c09_keys_map_slots. apply c09_attrs_final. exact Fr. }
  destruct (orphan_stab bs) eqn:O.
  - rewrite (c09_finalize_orphan _ _ _ Sh2 O). reflexivity.
  - destruct (is_hotfix dst) eqn:Hh.
    + apply c09_finalize_hf; assumption.
    + apply c09_finalize_nonhf; assumption.
Qed.

(* the inputs on which the code left the statement before the repairs f5b7e55 / 08d216c
   (kept as regression cases, also in corpus/C09/00_regressions.json):
   development/4.0 + stabilization/4.0.1, no tag, destination development/4.0: fix version 4.0.0
   (was 4.0.1, the version held by the untargeted stabilization branch); next to it the two neighbouring
   cases, a stabilization branch ahead of the next patch (not skipped) and holding exactly it (skipped) *)
Example c09_regression_gap :
  observe (build [Dev 4 (Some 0); Stab 4 0 1] [] (Dev 4 (Some 0))) =
    Ok (mkSpec [Dev 4 (Some 0)] ["stabilization/4.0.1"] [[4; 0; 0]]
               [[Dev 4 (Some 0)]; [Stab 4 0 1; Dev 4 (Some 0)]]) /\
  observe (build [Dev 4 (Some 0); Stab 4 0 3] ["4.0.0"] (Dev 4 (Some 0))) =
    Ok (mkSpec [Dev 4 (Some 0)] ["stabilization/4.0.3"] [[4; 0; 1]]
               [[Dev 4 (Some 0)]; [Stab 4 0 3; Dev 4 (Some 0)]]) /\
  observe (build [Dev 4 (Some 0); Stab 4 0 1] ["4.0.0"] (Dev 4 (Some 0))) =
    Ok (mkSpec [Dev 4 (Some 0)] ["stabilization/4.0.1"] [[4; 0; 2]]
               [[Dev 4 (Some 0)]; [Stab 4 0 1; Dev 4 (Some 0)]]).
Proof. repeat split; vm_compute; reflexivity. Qed.

(* stabilization/4.0.1 + hotfix/4.0.0 without development/4.0, destination hotfix/4.0.0: rejected with
   DevBranchDoesNotExist (was AttributeError on None.has_stabilization) *)
Example c09_regression_attr :
  observe (build [Stab 4 0 1; Hotfix 4 0 0] [] (Hotfix 4 0 0)) = Err DevBranchDoesNotExist /\
  spec [Stab 4 0 1; Hotfix 4 0 0] [] (Hotfix 4 0 0) = Err DevBranchDoesNotExist.
Proof. split; vm_compute; reflexivity. Qed.

(* The hypotheses of C09_full, C09_error_classes and C09_tag_order_error can be met, and model and
   specification give what QuickTest (bert_e/tests/test_bert_e.py) expects on its cascades. *)

(* test_branch_cascade_target_first_stab *)
Definition qt_first_stab_branches : list branch :=
  [Stab 4 3 18; Dev 4 (Some 3); Dev 5 (Some 1); Stab 5 1 4; Dev 10 (Some 0)].
Definition qt_first_stab_tags : list string := ["4.3.16"; "4.3.17"; "4.3.18_rc1"; "5.1.3"; "5.1.4_rc1"].

Example c09_qt_first_stab :
  let r := observe (build qt_first_stab_branches qt_first_stab_tags (Stab 4 3 18)) in
  r = spec qt_first_stab_branches (release_tags qt_first_stab_tags) (Stab 4 3 18) /\
  match r with
  | Ok o => map name_of (sp_dst o) = ["stabilization/4.3.18"; "development/4.3"; "development/5.1"; "development/10.0"]
            /\ sp_ignored o = ["stabilization/5.1.4"]
            /\ map print_version (sp_versions o) = ["4.3.18"; "5.1.5"; "10.0.0"]
            /\ map (map name_of) (sp_paths o) =
               [["development/4.3"; "development/5.1"; "development/10.0"];
                ["stabilization/4.3.18"; "development/4.3"; "development/5.1"; "development/10.0"];
                ["stabilization/5.1.4"; "development/5.1"; "development/10.0"]]
  | Err _ => False
  end.
Proof. vm_compute. repeat split; reflexivity. Qed.

(* the hypotheses of C09_full hold of that cascade, in a discovery order that is not the sorted one *)
Example c09_full_nonvacuous :
  let bs := qt_first_stab_branches in
  let order := [Dev 10 (Some 0); Stab 5 1 4; Stab 4 3 18; Dev 5 (Some 1); Dev 4 (Some 3)] in
  Permutation order bs /\ NoDup bs /\ In (Stab 4 3 18) bs /\
  c09_agrees order bs qt_first_stab_tags (Stab 4 3 18).
Proof.
  cbv zeta.
  assert (ND : NoDup qt_first_stab_branches) by (repeat constructor; cbn; intuition discriminate).
  assert (P : Permutation [Dev 10 (Some 0); Stab 5 1 4; Stab 4 3 18; Dev 5 (Some 1); Dev 4 (Some 3)]
                          qt_first_stab_branches).
  { apply NoDup_Permutation; [repeat constructor; cbn; intuition discriminate | exact ND |].
    intro b. cbn. intuition. }
  split; [exact P|]. split; [exact ND|]. split; [left; reflexivity|].
  apply c09_full_proof; try assumption. left; reflexivity.
Qed.

(* test_major_development_branch: development/x branches, v-prefixed tags *)
Example c09_qt_major_branches :
  let bs := [Stab 4 3 18; Dev 4 (Some 3); Dev 4 None; Stab 5 1 4; Dev 5 (Some 1); Dev 10 (Some 0); Dev 10 None] in
  let tags := ["4.3.16"; "4.3.17"; "4.3.18_rc1"; "v5.1.3"; "v5.1.4_rc1"; "v10.0.1"] in
  let r := observe (build bs tags (Dev 4 (Some 3))) in
  r = spec bs (release_tags tags) (Dev 4 (Some 3)) /\
  match r with
  | Ok o => map name_of (sp_dst o) = ["development/4.3"; "development/4"; "development/5.1"; "development/10.0"; "development/10"]
            /\ sp_ignored o = ["stabilization/4.3.18"; "stabilization/5.1.4"]
            /\ map print_version (sp_versions o) = ["4.3.19"; "4.4.0"; "5.1.5"; "10.0.2"; "10.1.0"]
  | Err _ => False
  end.
Proof. vm_compute. repeat split; reflexivity. Qed.

(* test_branch_cascade_target_hotfix (last tag list), test_branch_cascade_hotfix_and_stabilization,
   test_branch_dangling_stab, test_branch_cascade_multi_stab_branches *)
Example c09_qt_hotfix_and_rejections :
  let bs := [Stab 4 3 18; Dev 4 (Some 3); Stab 5 1 4; Dev 5 (Some 1); Hotfix 6 6 5; Hotfix 6 6 6; Hotfix 6 6 7;
             Dev 6 (Some 6); Hotfix 10 0 3; Hotfix 10 0 4; Dev 10 (Some 0)] in
  let tags := ["4.3.16"; "4.3.17"; "4.3.18_rc1"; "5.1.3"; "5.1.4_rc1"; "6.6.6.1"; "6.6.6.2"; "10.0.3.1"] in
  (exists o, observe (build bs tags (Hotfix 6 6 6)) = Ok o /\ spec bs (release_tags tags) (Hotfix 6 6 6) = Ok o /\
             map name_of (sp_dst o) = ["hotfix/6.6.6"] /\ map print_version (sp_versions o) = ["6.6.6.3"] /\
             sp_ignored o = ["development/10.0"; "development/4.3"; "development/5.1"; "development/6.6";
                             "stabilization/4.3.18"; "stabilization/5.1.4"]) /\
  observe (build [Stab 4 3 18; Dev 4 (Some 3); Hotfix 4 3 18] ["4.3.16"; "4.3.17"; "4.3.18"] (Hotfix 4 3 18))
    = Err DeprecatedStabilizationBranch /\
  observe (build [Stab 4 3 18; Dev 5 (Some 1)] ["4.3.17"; "5.1.3"] (Dev 5 (Some 1))) = Err DevBranchDoesNotExist /\
  observe (build [Stab 4 3 17; Stab 4 3 18; Dev 4 (Some 3)] [] (Stab 4 3 18)) = Err UnsupportedMultipleStabBranches.
Proof.
  cbv zeta. split; [|repeat split; vm_compute; reflexivity].
  eexists. split; [vm_compute; reflexivity|]. repeat split; vm_compute; reflexivity.
Qed.

(* the tag scanner on the forms of the quantifier *)
Example c09_parse_tag_forms :
  parse_tag "4.3.16" = Some (4, 3, 16, None) /\ parse_tag "v10.0.1" = Some (10, 0, 1, None) /\
  parse_tag "6.6.6.2" = Some (6, 6, 6, Some 2) /\ parse_tag "v01.002.3.40" = Some (1, 2, 3, Some 40) /\
  parse_tag "4.3.18_rc1" = None /\ parse_tag "4.3" = None /\ parse_tag "4.3.1." = None /\
  parse_tag "1.2.3.4.5" = None /\ parse_tag "V1.2.3" = None /\ parse_tag "" = None /\
  parse_tag (String "1" (String "." (String "2" (String "." (String "3" (String "010" EmptyString))))))
    = Some (1, 2, 3, None).
Proof. vm_compute. repeat split; reflexivity. Qed.

(* what the hand-written part of the model assumes about the classes (Facts_C09.v is regenerated from
   /repo on every run: a change of the hierarchy or of the shape of __eq__ stops this from checking) *)
Example c09_facts_shape :
  mro_development = ["DevelopmentBranch"; "GWFBranch"; "Branch"; "object"] /\
  mro_stabilization = ["StabilizationBranch"; "DevelopmentBranch"; "GWFBranch"; "Branch"; "object"] /\
  mro_hotfix = ["HotfixBranch"; "GWFBranch"; "Branch"; "object"] /\
  eq_compares_class = [("DevelopmentBranch", true); ("HotfixBranch", true); ("StabilizationBranch", true)] /\
  (can_be_destination CDev && can_be_destination CStab && can_be_destination CHotfix = true) /\
  tag_default_hfrev = 0.
Proof. repeat split. Qed.

(* hypotheses of C09_error_classes are satisfiable together with a rejection (test_branch_dangling_stab) *)
Example c09_error_classes_nonvacuous :
  let bs := [Stab 4 3 18; Dev 5 (Some 1)] in
  let tags := ["4.3.17"; "5.1.3"] in
  NoDup bs /\ In (Dev 5 (Some 1)) bs /\
  build [Dev 5 (Some 1); Stab 4 3 18] tags (Dev 5 (Some 1)) = Err DevBranchDoesNotExist.
Proof.
  cbv zeta. split; [repeat constructor; cbn; intuition discriminate|]. split; [right; left; reflexivity|].
  vm_compute; reflexivity.
Qed.

(* hypotheses of C09_tag_order_error on a cascade built by add_branch: the deprecating tag first or last *)
Example c09_tag_order_nonvacuous :
  exists c, add_all [Stab 6 1 5; Dev 6 (Some 1)] (Some (Stab 6 1 5)) [] = Ok c /\ NoDup (keys c) /\
            update_all [Some (6, 1, 4, None); Some (6, 1, 5, None)] c = Err DeprecatedStabilizationBranch /\
            update_all [Some (6, 1, 5, None); Some (6, 1, 4, None)] c = Err DeprecatedStabilizationBranch /\
            (exists c', update_all [Some (6, 1, 4, None); None] c = Ok c').
Proof.
  exists [((6, Some 1), mkSlot (Some (Dev 6 (Some 1), dev_default)) (Some (Stab 6 1 5)) None)].
  split; [reflexivity|]. split; [repeat constructor; intros []|].
  split; [reflexivity|]. split; [reflexivity|].
  exists [((6, Some 1), mkSlot (Some (Dev 6 (Some 1), mkDA 4 (-1) false None)) (Some (Stab 6 1 5)) None)]. reflexivity.
Qed.
