(* Proofs for C12: the gates of _handle_pull_request (Model/Holds.v, data from Generated/Facts_C12.v, options
   through Model/Reactor.v, names through Model/Names.v) against Spec/C12Spec.v.

   Each gate gets one equation in the terms of the specification (c12_check_dependencies_eq under typed
   settings, c12_early_checks_eq, c12_carried_of_ok for handle_comments); c12_evaluate_view says how an evaluation
   can end.  The histories rest on the invariant "nothing in the queue is held" and on one lemma about the
   updates that keep it (c12_inv_update).  Only Properties/C12.v imports this file.  Of C07 it uses the frame,
   block and unaddressed lemmas of Proofs/C07Proofs.v; branch names come through Model/Names.v alone (nothing of
   Proofs/C18Proofs.v is needed). *)
From Coq Require Import List String Ascii Bool Arith NArith Lia Permutation.
Require Import BertE.Base.Str BertE.Base.Lists BertE.Base.C07Str BertE.Generated.Facts_C07
               BertE.Generated.Facts_C12 BertE.Model.Names BertE.Model.Reactor BertE.Model.Holds
               BertE.Spec.C07Spec BertE.Spec.C12Spec BertE.Proofs.C07Proofs.
Import ListNotations.
Open Scope string_scope.

Lemma filter_length_eqb {A} (p : A -> bool) l :
  Nat.eqb (List.length l) (List.length (filter p l)) = negb (existsb (fun x => negb (p x)) l).
Proof.
  induction l as [|a t IH]; cbn [filter existsb List.length]; [reflexivity|].
  destruct (p a); cbn [List.length negb orb]; [exact IH|].
  apply Nat.eqb_neq. pose proof (filter_length_le p t). lia.
Qed.

Definition c12_gates : list string :=
  ["early_checks"; "send_greetings"; "handle_comments"; "check_dependencies"; "clone_git_repo";
   "handle_declined_pull_request"].

(* every call that can create a branch, a pull request, a queue entry or a merge (or push) comes after
   every gate, in particular after clone_git_repo and after the DECLINED branch *)
Lemma c12_gates_precede : forallb precedes_creating c12_gates = true.
Proof. vm_compute. reflexivity. Qed.

Lemma c12_precedes c : In c c12_gates -> precedes_creating c = true.
Proof. revert c. apply forallb_forall. exact c12_gates_precede. Qed.

Lemma c12_fact_literals :
  early_status_ok = ["OPEN"; "DECLINED"] /\
  early_raises = ["NothingToDo"; "NotMyJob"; "WrongDestination"] /\
  dep_raises = ["NothingToDo"; "IncorrectPullRequestNumber"; "AfterPullRequest"] /\
  dep_merged_status = "MERGED" /\ declined_guard_status = "DECLINED" /\ declined_always_raises = true /\
  notify_kind = "template".
Proof. vm_compute. repeat split; reflexivity. Qed.

(* only the option handler and check_dependencies look at the hold options; the queue code looks at
   neither comments nor options *)
Lemma c12_hold_readers : hold_readers = ["after_pull_request"; "check_dependencies"] /\ queue_reads_holds = false.
Proof. vm_compute. split; reflexivity. Qed.

Definition c12_quiet (cls : string) : bool := match notified cls with Some false => true | _ => false end.

(* which of the exceptions of the gates handle_pull_request posts *)
Lemma c12_kinds :
  notified "NothingToDo" = Some false /\ notified "NotMyJob" = Some false /\
  notified "UnrecognizedBranchPattern" = Some false /\ notified "PullRequestDeclined" = Some false /\
  notified "WrongDestination" = Some true /\ notified "AfterPullRequest" = Some true /\
  notified "IncorrectPullRequestNumber" = Some true /\ notified "InitMessage" = Some true.
Proof. vm_compute. repeat split; reflexivity. Qed.

(* `wait` and `after_pull_request` are options anybody may set (the registry of C07 and the flags read by
   this property's translator agree) *)
Lemma c12_hold_options_unprivileged :
  map fst hold_flags = ["wait"; "after_pull_request"] /\
  forallb (fun kf => match dispatch registry (fst kf) with
                     | Some e => is_option e && Bool.eqb (e_priv e) (fst (snd kf))
                                 && Bool.eqb (e_auth e) (snd (snd kf)) && negb (e_priv e) && negb (e_auth e)
                     | None => false
                     end) hold_flags = true.
Proof. vm_compute. split; reflexivity. Qed.

Lemma c12_first_unknown_spec lookup ids :
  match first_unknown lookup ids with
  | Some d => In d ids /\ dep_status lookup d = None
  | None => forall d, In d ids -> dep_status lookup d <> None
  end.
Proof.
  induction ids as [|x t IH]; cbn [first_unknown]; [intros d []|].
  destruct (dep_status lookup x) eqn:E.
  - destruct (first_unknown lookup t) as [d|].
    + split; [right|]; apply IH.
    + intros d [<-|I]; [rewrite E; discriminate | exact (IH d I)].
  - split; [left; reflexivity | exact E].
Qed.

(* only whether there is an unknown id matters to the outcome, not which one is met first *)
Lemma c12_order_independent lookup s o1 o2 : Permutation o1 o2 ->
  check_dependencies lookup s o1 = check_dependencies lookup s o2.
Proof.
  intro P. unfold check_dependencies.
  rewrite (Permutation_length (Permutation_filter (is_merged lookup) o1 o2 P)).
  destruct (first_unknown lookup o1) as [d|] eqn:E1, (first_unknown lookup o2) as [d'|] eqn:E2;
    [reflexivity | exfalso | exfalso | reflexivity].
  all: pose proof (c12_first_unknown_spec lookup o1) as U1; pose proof (c12_first_unknown_spec lookup o2) as U2.
  all: rewrite E1 in U1; rewrite E2 in U2.
  - destruct U1 as [I U]. exact (U2 d (Permutation_in d P I) U).
  - destruct U2 as [I U]. exact (U1 d' (Permutation_in d' (Permutation_sym P) I) U).
Qed.

(* The specification writes the model's [after_ids] and [is_merged] out again as [dependencies] and [dep_merged]:
   the two pairs are equal by conversion. *)
Lemma c12_after_ids_dependencies s : after_ids s = dependencies s.
Proof. reflexivity. Qed.

Lemma c12_is_merged_spec lookup d : is_merged lookup d = dep_merged lookup d.
Proof. reflexivity. Qed.

(* settings in which both hold options have the shape the registry gives them *)
Definition c12_typed (s : settings) : Prop :=
  (exists w, get_setting "wait" s = Some w) /\ c07_apv s.

(* check_dependencies in the terms of the specification.  With l the set of dependencies, the length test
   of the code compares l with the merged ones among a permutation of l; an unknown id is not merged. *)
Lemma c12_check_dependencies_eq lookup s order : c12_typed s -> Permutation order (after_ids s) ->
  check_dependencies lookup s order =
  if wait_on s then DRaise "NothingToDo"
  else if existsb (fun d => negb (dep_merged lookup d)) (dependencies s)
       then DRaise match first_unknown lookup order with
                   | Some _ => "IncorrectPullRequestNumber"
                   | None => "AfterPullRequest"
                   end
       else DReturn.
Proof.
  intros [[w W] [l A]] P. unfold after_ids in P. unfold check_dependencies, wait_on, dependencies.
  rewrite A in P. rewrite W, A. destruct (truthy w); [reflexivity|].
  rewrite (Permutation_length (Permutation_filter (is_merged lookup) order l P)).
  rewrite (filter_ext _ _ (c12_is_merged_spec lookup)), filter_length_eqb.
  destruct (existsb (fun d => negb (dep_merged lookup d)) l) eqn:X; cbn [negb].
  - destruct l as [|d0 l0]; [discriminate X|]. destruct (first_unknown lookup order); reflexivity.
  - destruct (negb (truthy (VSet l))); [reflexivity|].
    pose proof (c12_first_unknown_spec lookup order) as U.
    destruct (first_unknown lookup order) as [d|]; [|reflexivity]. destruct U as [I U].
    apply not_true_iff_false in X. destruct X. apply existsb_exists. exists d. split; [exact (Permutation_in d P I)|].
    unfold dep_merged. unfold dep_status in U. rewrite U. reflexivity.
Qed.

Lemma c12_dep_return_iff lookup s order : c12_typed s -> Permutation order (after_ids s) ->
  check_dependencies lookup s order = DReturn <-> held_by lookup s = false.
Proof.
  intros T P. rewrite (c12_check_dependencies_eq lookup s order T P). unfold held_by.
  destruct (wait_on s); [split; discriminate|].
  destruct (existsb _ (dependencies s)); split; try discriminate; reflexivity.
Qed.

Lemma c12_init_wait cmdline :
  get_setting "wait" (init_settings registry cmdline)
  = Some (if mem_str "wait" cmdline then VBool true else VBool false).
Proof. exact (c07_init_get registry cmdline "wait"). Qed.

Lemma c12_init_after cmdline : get_setting "after_pull_request" (init_settings registry cmdline) = Some (VSet []).
Proof. exact (c07_init_get registry cmdline "after_pull_request"). Qed.

(* The option handlers change the settings through set_setting only: a property that set_setting keeps
   holds of whatever the option loop ends with, normally or not. *)
Section Invariant.
  Variable Inv : settings -> Prop.
  Hypothesis set_inv : forall k v s, Inv s -> Inv (set_setting k v s).

  Lemma c12_run_option_inv e args s : Inv s -> Inv (rsettings (run_option e args s)).
  Proof.
    intro H. unfold run_option. destruct (e_handler e); try exact H.
    - destruct args as [|a [|b r]]; cbn [rsettings]; try exact H; apply set_inv; exact H.
    - destruct args as [|a [|b r]]; cbn [rsettings]; try exact H.
      destruct (py_int_ok a); [|exact H].
      destruct (get_setting "after_pull_request" s) as [[| | |l]|]; cbn [rsettings]; try exact H.
      apply set_inv. exact H.
  Qed.

  Lemma c12_apply_keywords_inv reg P A kws : forall first s, Inv s ->
    Inv (rsettings (apply_keywords reg P A first kws s)).
  Proof.
    induction kws as [|kwd rest IH]; intros first s H; [exact H|]. cbn [apply_keywords].
    destruct (dispatch reg (kw_key kwd)) as [e|]; [|exact H].
    destruct (is_option e); [|destruct first; exact H].
    destruct (e_priv e && negb P); [exact H|]. destruct (e_auth e && negb A); [exact H|].
    pose proof (c12_run_option_inv e (kw_args kwd) s H) as R.
    destruct (run_option e (kw_args kwd) s) as [s1|r s1]; [apply IH|]; exact R.
  Qed.

  Lemma c12_handle_options_inv reg prefix P A text s : Inv s ->
    Inv (rsettings (handle_options reg prefix P A text s)).
  Proof.
    intro H. unfold handle_options. destruct (option_keywords prefix text); [apply c12_apply_keywords_inv|]; exact H.
  Qed.
End Invariant.

Lemma c12_has_set k k' v s :
  (exists w, get_setting k s = Some w) -> exists w, get_setting k (set_setting k' v s) = Some w.
Proof.
  intro H. destruct (String.eqb_spec k' k) as [->|N].
  - exists v. apply c07_get_set_same.
  - rewrite c07_get_set_other; [exact H | exact N].
Qed.

Lemma c12_typed_options_phase robot admins pr_author cs : forall s, c12_typed s ->
  forall s', options_phase registry (address robot) admins pr_author cs s = Ok s' -> c12_typed s'.
Proof.
  induction cs as [|c t IH]; intros s [W AP] s' E; cbn [options_phase] in E.
  - injection E as <-. exact (conj W AP).
  - pose proof (c07_handle_options_block robot admins pr_author c s AP) as HB.
    pose proof (c12_handle_options_inv _ (c12_has_set "wait") registry (address robot)
                  (is_privileged admins pr_author (c_author c)) (c_author c =? pr_author)%string (c_text c) s W) as HW.
    destruct (handle_options registry (address robot) (is_privileged admins pr_author (c_author c))
                (c_author c =? pr_author)%string (c_text c) s) as [s1|r s1]; [|discriminate E].
    exact (IH s1 (conj HW HB) s' E).
Qed.

Lemma c12_options_typed cmdline robot admins pr_author cs s :
  options_result registry cmdline robot admins pr_author cs = Ok s -> c12_typed s.
Proof.
  apply c12_typed_options_phase. split; [eexists; apply c12_init_wait | exists []; apply c12_init_after].
Qed.

Lemma c12_producer_source k : cascade_producer k = source_name k.
Proof. destruct k; vm_compute; reflexivity. Qed.

Lemma c12_consumer_destination k : cascade_consumer k = destination_name k.
Proof. destruct k; vm_compute; reflexivity. Qed.

Lemma c12_status_ok st : mem_str st early_status_ok = true <-> st = "OPEN" \/ st = "DECLINED".
Proof.
  rewrite mem_str_In. cbn [In early_status_ok]. intuition congruence.
Qed.

(* early_checks in the terms of the specification: the status test, then the names, then the remote.  Python
   looks at the source first and at the destination only for a producer source, [foreign] at both; the two
   agree on whether a name is refused, and the class raised is one of two. *)
Lemma c12_early_checks_eq e st src dst :
  exists cls, (cls = "NotMyJob" \/ cls = "UnrecognizedBranchPattern") /\
    early_checks e st src dst =
    if negb (mem_str st early_status_ok) then Some "NothingToDo"
    else if foreign src dst then Some cls
    else if e then None else Some "WrongDestination".
Proof.
  unfold early_checks, foreign, foreign_destination, foreign_source, is_cascade_producer, is_cascade_consumer.
  destruct (classify src) as [a|]; cbn [option_map].
  2:{ exists "UnrecognizedBranchPattern". rewrite orb_true_r. split; [right|]; reflexivity. }
  rewrite c12_producer_source. destruct (source_name (bi_class a)); cbn [negb].
  2:{ exists "NotMyJob". rewrite orb_true_r. split; [left|]; reflexivity. }
  rewrite orb_false_r. destruct (classify dst) as [b|]; cbn [option_map].
  2:{ exists "UnrecognizedBranchPattern". split; [right|]; reflexivity. }
  rewrite c12_consumer_destination. exists "NotMyJob". split; [left; reflexivity|].
  destruct (destination_name (bi_class b)); reflexivity.
Qed.

Lemma c12_early_none e st src dst :
  early_checks e st src dst = None <->
  (st = "OPEN" \/ st = "DECLINED") /\ foreign src dst = false /\ e = true.
Proof.
  destruct (c12_early_checks_eq e st src dst) as (cls & _ & ->). rewrite <- c12_status_ok. split.
  - destruct (mem_str st early_status_ok); [|discriminate]. destruct (foreign src dst); [discriminate|].
    destruct e; [|discriminate]. intros _. repeat split; reflexivity.
  - intros (-> & -> & ->). reflexivity.
Qed.

(* deleting comments that are not addressed to the robot (its own messages, chat), or adding some, leaves
   the carried options unchanged: two comment lists with the same addressed comments carry the same *)
Lemma c12_options_filter reg cmdline robot admins pr_author cs :
  options_result reg cmdline robot admins pr_author cs
  = options_result reg cmdline robot admins pr_author (filter (fun c => addressed robot (c_text c)) cs).
Proof.
  assert (G : forall pre, options_result reg cmdline robot admins pr_author (pre ++ cs)
              = options_result reg cmdline robot admins pr_author
                               (pre ++ filter (fun c => addressed robot (c_text c)) cs)).
  { induction cs as [|c t IH]; intro pre; [reflexivity|]. cbn [filter].
    destruct (addressed robot (c_text c)) eqn:A.
    - specialize (IH (pre ++ [c])%list). rewrite <- !app_assoc in IH. exact IH.
    - rewrite (proj1 (c07_unaddressed reg cmdline robot admins pr_author pre c t A)). apply IH. }
  exact (G []).
Qed.

Lemma c12_greeting_unaddressed robot : addressed robot greeting_text = false.
Proof. reflexivity. Qed.

(* the options handle_comments works with are the ones the pull request carries: the greeting posted by
   the same evaluation changes nothing *)
Lemma c12_visible_options cf p :
  options_result registry (cf_cmdline cf) (cf_robot cf) (cf_admins cf) (pr_author p)
                 (visible_comments (cf_robot cf) (pr_comments p))
  = options_result registry (cf_cmdline cf) (cf_robot cf) (cf_admins cf) (pr_author p) (pr_comments p).
Proof.
  unfold visible_comments. destruct (greets (cf_robot cf) (pr_comments p)); [|reflexivity].
  rewrite c12_options_filter, filter_app. cbn [filter c_text].
  rewrite c12_greeting_unaddressed, app_nil_r. symmetry. apply c12_options_filter.
Qed.

Lemma c12_handle_comments_ok reg cmdline robot admins pr_author cs s :
  handle_comments reg cmdline robot admins pr_author cs = Ok s ->
  options_result reg cmdline robot admins pr_author cs = Ok s.
Proof.
  unfold handle_comments. destruct (options_result reg cmdline robot admins pr_author cs) as [s0|e s0]; [|discriminate].
  destruct (commands_scan reg ("@" ++ robot) robot admins pr_author (rev cs)); [discriminate|]. exact (fun H => H).
Qed.

Lemma c12_carried_of_ok cf p s :
  handle_comments registry (cf_cmdline cf) (cf_robot cf) (cf_admins cf) (pr_author p)
                  (visible_comments (cf_robot cf) (pr_comments p)) = Ok s ->
  carried cf p = s /\ c12_typed s.
Proof.
  intro H. apply c12_handle_comments_ok in H. split.
  - unfold carried. rewrite <- c12_visible_options, H. reflexivity.
  - exact (c12_options_typed _ _ _ _ _ _ H).
Qed.

Lemma c12_after_clone st s :
  after_clone st s = if (st =? "DECLINED")%string then StoppedDeclined else Continues s.
Proof. reflexivity. Qed.

Definition c12_perm (order : list string -> list string) : Prop := forall l, Permutation (order l) l.

(* How an evaluation can end: stopped in one of the gates, or past all of them, and what must then have held. *)
Lemma c12_evaluate_view cf e lookup order p :
  match ev_fate (evaluate cf e lookup order p) with
  | Continues s =>
      pr_status p = "OPEN" /\ foreign (pr_src p) (pr_dst p) = false /\ e = true /\
      handle_comments registry (cf_cmdline cf) (cf_robot cf) (cf_admins cf) (pr_author p)
                      (visible_comments (cf_robot cf) (pr_comments p)) = Ok s /\
      check_dependencies lookup s (order (after_ids s)) = DReturn
  | f => exists c, stop_call f = Some c /\ In c c12_gates
  end.
Proof.
  unfold evaluate.
  destruct (early_checks e (pr_status p) (pr_src p) (pr_dst p)) eqn:EC; cbn [ev_fate].
  { exists "early_checks". split; [reflexivity | apply mem_str_In; reflexivity]. }
  apply c12_early_none in EC as (ST & NF & ->).
  destruct (handle_comments _ _ _ _ _ _) as [s|[cls|n] s].
  2,3: exists "handle_comments"; split; [reflexivity | apply mem_str_In; reflexivity].
  destruct (check_dependencies lookup s (order (after_ids s))) eqn:CD.
  2,3: exists "check_dependencies"; split; [reflexivity | apply mem_str_In; reflexivity].
  rewrite c12_after_clone. destruct (String.eqb_spec (pr_status p) "DECLINED") as [D|ND].
  - exists "handle_declined_pull_request". split; [reflexivity | apply mem_str_In; reflexivity].
  - destruct ST as [ST|ST]; [|contradiction]. exact (conj ST (conj NF (conj eq_refl (conj eq_refl CD)))).
Qed.

Lemma c12_continues_not_held cf e lookup order p s : c12_perm order ->
  ev_fate (evaluate cf e lookup order p) = Continues s -> held cf lookup p = false.
Proof.
  intros PO F. pose proof (c12_evaluate_view cf e lookup order p) as V. rewrite F in V.
  destruct V as (_ & _ & _ & HC & CD). destruct (c12_carried_of_ok cf p s HC) as [C T].
  unfold held. rewrite C. exact (proj1 (c12_dep_return_iff lookup s _ T (PO _)) CD).
Qed.

(* C12_silent *)
Theorem c12_silent cf dst_exists lookup order p :
  foreign (pr_src p) (pr_dst p) = true \/ (finished (pr_status p) = true /\ closed (pr_status p) = false) ->
  exists cls, evaluate cf dst_exists lookup order p = mk_eval false (Stopped "early_checks" cls) /\
              notified cls = Some false /\
              (cls = "NothingToDo" \/ cls = "NotMyJob" \/ cls = "UnrecognizedBranchPattern").
Proof.
  intro H. unfold evaluate. destruct c12_kinds as (K1 & K2 & K3 & _).
  destruct (c12_early_checks_eq dst_exists (pr_status p) (pr_src p) (pr_dst p)) as (cls & C & ->).
  destruct (mem_str (pr_status p) early_status_ok) eqn:M; cbn [negb].
  2:{ exists "NothingToDo". split; [reflexivity|]. split; [exact K1 | left; reflexivity]. }
  assert (F : foreign (pr_src p) (pr_dst p) = true).
  { destruct H as [F|[Fi Cl]]; [exact F|]. exfalso. unfold finished, closed in *.
    apply c12_status_ok in M as [M|M]; rewrite M in *; [discriminate Fi | discriminate Cl]. }
  rewrite F. exists cls. split; [reflexivity|]. split; [|right; exact C].
  destruct C as [-> | ->]; assumption.
Qed.

Lemma c12_carried_unnamed cf p o :
  (forall c, In c (pr_comments p) -> names (cf_robot cf) (c_text c) o = false) ->
  get_setting o (carried cf p) = get_setting o (init_settings registry (cf_cmdline cf)).
Proof.
  intro H. unfold carried, options_result.
  apply (c07_options_phase_frame registry (cf_robot cf) (cf_admins cf) (pr_author p) o c07_registry_ok).
  intros c I. left. exact (H c I).
Qed.

(* a pull request is held only if one of its comments names a hold option (no hold out of nothing),
   unless `wait` was switched on from the command line *)
Theorem c12_hold_needs_comment cf lookup p : mem_str "wait" (cf_cmdline cf) = false ->
  held cf lookup p = true ->
  exists c, In c (pr_comments p) /\
            (names (cf_robot cf) (c_text c) "wait" = true \/
             names (cf_robot cf) (c_text c) "after_pull_request" = true).
Proof.
  intros CL H.
  destruct (existsb (fun c => names (cf_robot cf) (c_text c) "wait"
                              || names (cf_robot cf) (c_text c) "after_pull_request") (pr_comments p)) eqn:X.
  - apply existsb_exists in X as (c & I & N). exists c. split; [exact I | apply orb_true_iff; exact N].
  - exfalso. rewrite existsb_false_iff in X. unfold held, held_by, wait_on, dependencies in H.
    rewrite (c12_carried_unnamed cf p "wait" (fun c I => proj1 (orb_false_elim _ _ (X c I)))),
      (c12_carried_unnamed cf p "after_pull_request" (fun c I => proj2 (orb_false_elim _ _ (X c I)))),
      c12_init_wait, CL, c12_init_after in H.
    discriminate H.
Qed.

Lemma c12_clean_logb_spec cf log : clean_logb cf log = true <-> clean_log cf log.
Proof.
  unfold clean_logb, clean_log. rewrite forallb_forall. split.
  - intros H id w I. apply negb_true_iff. exact (H (id, w) I).
  - intros H [id w] I. apply negb_true_iff. exact (H id w I).
Qed.

(* the invariant behind C12_partial: nothing in the queue is held *)
Definition c12_inv (cf : config) (w : sys) : Prop :=
  forall id, In id (s_queued w) -> held_in cf w id = false.

Lemma c12_mem_N x l : mem_N x l = true <-> In x l.
Proof. exact (existsb_eqb_In N.eqb N.eqb_eq x l). Qed.

Lemma c12_find_update f id id' prs :
  find_pr (update_pr f id prs) id'
  = option_map (fun q => if (id' =? id)%N then f q else q) (find_pr prs id').
Proof.
  induction prs as [|[i q] t IH]; [reflexivity|]. cbn [update_pr map fst snd find_pr]. fold (update_pr f id t).
  destruct (i =? id)%N eqn:E; cbn [fst snd find_pr];
    (destruct (N.eqb_spec i id') as [<-|]; [cbn [option_map]; rewrite E; reflexivity | exact IH]).
Qed.

(* merging pull requests can only lift holds *)
Lemma c12_held_by_mono l1 l2 s :
  (forall n, l1 n = Some "MERGED" -> l2 n = Some "MERGED") -> held_by l1 s = false -> held_by l2 s = false.
Proof.
  intros M H. unfold held_by in *. apply orb_false_iff in H as [HW HD]. rewrite HW. cbn [orb].
  induction (dependencies s) as [|d t IH]; [reflexivity|]. cbn [existsb] in *.
  apply orb_false_iff in HD as [H1 H2]. rewrite (IH H2), orb_false_r.
  apply negb_false_iff in H1. apply negb_false_iff. unfold dep_merged in *.
  destruct (l1 (py_int_value d)) as [st|] eqn:E; [|discriminate H1].
  apply String.eqb_eq in H1. subst st. rewrite (M _ E). reflexivity.
Qed.

Lemma c12_carried_with_status cf st q : carried cf (with_status st q) = carried cf q.
Proof. reflexivity. Qed.

(* The invariant survives an update of one pull request that is not in the new queue, if the queue does not
   grow and no pull request loses the status MERGED: what the queued ones carry is untouched, and their
   dependencies can only get merged. *)
Lemma c12_inv_update cf w f id queue :
  (forall q, pr_status q = "MERGED" -> pr_status (f q) = "MERGED") ->
  (forall x, In x queue -> In x (s_queued w) /\ x <> id) ->
  c12_inv cf w -> c12_inv cf (mk_sys (update_pr f id (s_prs w)) queue).
Proof.
  intros K Q INV x I. cbn [s_queued] in I. destruct (Q x I) as [I0 NE]. specialize (INV x I0).
  unfold held_in in *. cbn [s_prs]. rewrite c12_find_update.
  destruct (find_pr (s_prs w) x) as [q|]; [|reflexivity]. cbn [option_map].
  rewrite (proj2 (N.eqb_neq x id) NE). unfold held in *.
  apply (c12_held_by_mono (lookup_of w)); [|exact INV]. intro n. unfold lookup_of. cbn [s_prs].
  rewrite c12_find_update. destruct (find_pr (s_prs w) n) as [q0|]; [|discriminate]. cbn [option_map].
  destruct (n =? id)%N; [|exact (fun E => E)]. intro E. injection E as E. rewrite (K q0 E). reflexivity.
Qed.

(* a comment added to or deleted from a pull request that is not queued *)
Lemma c12_inv_comments cf w f id :
  (forall q, pr_status q = "MERGED" -> pr_status (f q) = "MERGED") -> negb (mem_N id (s_queued w)) = true ->
  c12_inv cf w -> c12_inv cf (mk_sys (update_pr f id (s_prs w)) (s_queued w)).
Proof.
  intros K Q. apply c12_inv_update; [exact K|]. intros x I. split; [exact I|]. intros ->.
  apply c12_mem_N in I. rewrite I in Q. discriminate Q.
Qed.

Lemma c12_inv_merge_one cf w id : c12_inv cf w -> c12_inv cf (merge_one w id).
Proof.
  apply c12_inv_update; [reflexivity|]. intros x I. apply filter_In in I as [I N]. split; [exact I|].
  apply N.eqb_neq, negb_true_iff. exact N.
Qed.

Lemma c12_inv_fold cf sel : forall w, c12_inv cf w -> c12_inv cf (fold_left merge_one sel w).
Proof.
  induction sel as [|id t IH]; intros w INV; [exact INV|]. cbn [fold_left]. apply IH.
  apply c12_inv_merge_one. exact INV.
Qed.

(* handle_merge_queues merges queued pull requests only *)
Lemma c12_eval_queue_inv cf w green : c12_inv cf w ->
  c12_inv cf (fst (eval_queue w green)) /\
  (forall id, In id (snd (eval_queue w green)) -> held_in cf w id = false).
Proof.
  intro INV. unfold eval_queue, queue_selection. cbn [fst snd]. split; [apply c12_inv_fold; exact INV|].
  intros x I. apply filter_In in I as [I _]. exact (INV x I).
Qed.

Lemma c12_step_inv h w e : c12_perm (h_order h) ->
  match e with EComment id _ | EDelete id _ => negb (mem_N id (s_queued w)) | _ => true end = true ->
  c12_inv (h_cf h) w ->
  c12_inv (h_cf h) (fst (step h w e)) /\
  (forall id, In id (snd (step h w e)) -> held_in (h_cf h) w id = false).
Proof.
  intros PO Q INV.
  assert (NC : c12_inv (h_cf h) w /\ (forall id, In id [] -> held_in (h_cf h) w id = false))
    by (split; [exact INV | intros x []]).
  destruct e as [id c|id k|id ready direct green|green]; cbn [step].
  - split; [apply c12_inv_comments; [exact (fun q E => E) | exact Q | exact INV] | intros x []].
  - split; [apply c12_inv_comments; [exact (fun q E => E) | exact Q | exact INV] | intros x []].
  - destruct (find_pr (s_prs w) id) as [p|] eqn:F; [|exact NC].
    destruct (ev_fate (evaluate (h_cf h) (h_exists h (pr_dst p)) (lookup_of w) (h_order h) p)) as [c cls| |s] eqn:EV;
      try exact NC.
    assert (NH : held_in (h_cf h) w id = false).
    { unfold held_in. rewrite F. exact (c12_continues_not_held _ _ _ _ _ _ PO EV). }
    destruct (h_use_queue h && mem_N id (s_queued w)); [exact (c12_eval_queue_inv _ w green INV)|].
    destruct ready; [|exact NC]. destruct (h_use_queue h && negb direct); cbn [negb fst snd].
    + split; [|intros x []]. intros x I. cbn [s_queued] in I. apply in_app_or in I as [I|[<-|[]]].
      * exact (INV x I).
      * exact NH.
    + split; [apply c12_inv_merge_one; exact INV|]. intros x [<-|[]]. exact NH.
  - exact (c12_eval_queue_inv _ w green INV).
Qed.

(* C12_partial *)
Theorem c12_partial h w evs : c12_perm (h_order h) -> c12_inv (h_cf h) w ->
  quiet_while_queued h w evs = true -> clean_log (h_cf h) (run h w evs).
Proof.
  intros PO. revert w. induction evs as [|e t IH]; intros w INV Q; [intros id w' []|].
  cbn [quiet_while_queued] in Q. apply andb_true_iff in Q as [Q1 Q2].
  destruct (c12_step_inv h w e PO Q1 INV) as [INV' CL].
  cbn [run]. destruct (step h w e) as [w' merged]. cbn [fst snd] in *.
  intros id w0 I. apply in_app_or in I as [I|I].
  - apply in_map_iff in I as (x & E & IX). injection E as <- <-. exact (CL x IX).
  - exact (IH w' INV' Q2 id w0 I).
Qed.

Definition c12_lookup0 : N -> option string := lookup_of c12_w0.

Example c12_ex_wait_held :
  held c12_cf c12_lookup0 (with_comments [mk_comment "author" "@bert-e wait"] c12_pr1) = true /\
  ev_fate (evaluate c12_cf true c12_lookup0 (fun l => l)
             (with_comments [mk_comment "author" "@bert-e wait"] c12_pr1))
  = Stopped "check_dependencies" "NothingToDo".
Proof. vm_compute. split; reflexivity. Qed.

Example c12_ex_after_open_held :
  held c12_cf c12_lookup0 (with_comments [mk_comment "peer" "@bert-e after_pull_request=2"] c12_pr1) = true /\
  ev_fate (evaluate c12_cf true c12_lookup0 (fun l => l)
             (with_comments [mk_comment "peer" "@bert-e after_pull_request=2"] c12_pr1))
  = Stopped "check_dependencies" "AfterPullRequest".
Proof. vm_compute. split; reflexivity. Qed.

Example c12_ex_after_unknown_and_order :
  let p := with_comments [mk_comment "author" "@bert-e after_pull_request=2 after_pull_request=77"] c12_pr1 in
  held c12_cf c12_lookup0 p = true /\
  ev_fate (evaluate c12_cf true c12_lookup0 (fun l => l) p) = Stopped "check_dependencies" "IncorrectPullRequestNumber" /\
  ev_fate (evaluate c12_cf true c12_lookup0 (@rev string) p) = Stopped "check_dependencies" "IncorrectPullRequestNumber".
Proof. vm_compute. repeat split; reflexivity. Qed.

Example c12_ex_non_numeric_free :
  let p := with_comments [mk_comment "author" "@bert-e after_pull_request=abc"] c12_pr1 in
  held c12_cf c12_lookup0 p = false /\ spec_verdict c12_cf c12_lookup0 p = VFree /\
  exists s, ev_fate (evaluate c12_cf true c12_lookup0 (fun l => l) p) = Continues s.
Proof. vm_compute. repeat split; try reflexivity. eexists. reflexivity. Qed.

Example c12_ex_merged_dependency_free :
  let lk := fun n : N => if (n =? 2)%N then Some "MERGED" else None in
  let p := with_comments [mk_comment "author" "@bert-e after_pull_request=2"] c12_pr1 in
  held c12_cf lk p = false /\ exists s, ev_fate (evaluate c12_cf true lk (fun l => l) p) = Continues s.
Proof. vm_compute. split; [reflexivity | eexists; reflexivity]. Qed.

Example c12_ex_foreign :
  foreign_stated "user/x" "development/4.3" = true /\ foreign_stated "bugfix/x" "release/4.3" = true /\
  foreign_stated "hotfix/4.3.1" "development/4.3" = true /\ foreign_stated "what" "development/4.3" = true /\
  foreign "w/4.3/bugfix/x" "development/4.3" = true /\ foreign_stated "w/4.3/bugfix/x" "development/4.3" = false /\
  foreign "bugfix/x" "development/4.3" = false /\ foreign "development/4.3" "development/5.1" = false /\
  evaluate c12_cf true c12_lookup0 (fun l => l) (mk_pr "OPEN" "user/x" "development/4.3" "author" [])
  = mk_eval false (Stopped "early_checks" "NotMyJob").
Proof. vm_compute. repeat split; reflexivity. Qed.

Example c12_ex_finished :
  evaluate c12_cf true c12_lookup0 (fun l => l) (with_status "MERGED" c12_pr1)
  = mk_eval false (Stopped "early_checks" "NothingToDo") /\
  evaluate c12_cf true c12_lookup0 (fun l => l) (with_status "DECLINED" c12_pr1) = mk_eval true StoppedDeclined /\
  evaluate c12_cf false c12_lookup0 (fun l => l) c12_pr1 = mk_eval false (Stopped "early_checks" "WrongDestination").
Proof. vm_compute. repeat split; reflexivity. Qed.

Example c12_ex_lifted :
  let held_p := with_comments [mk_comment "bert-e" "Hello"; mk_comment "author" "@bert-e wait"] c12_pr1 in
  let lifted := with_comments [mk_comment "bert-e" "Hello"] c12_pr1 in
  held c12_cf c12_lookup0 held_p = true /\ held c12_cf c12_lookup0 lifted = false /\
  evaluate c12_cf true c12_lookup0 (fun l => l) lifted
  = mk_eval false (Continues (carried c12_cf c12_pr1)).
Proof. vm_compute. repeat split; reflexivity. Qed.

Example c12_ex_partial_history :
  let evs := [EComment 1 (mk_comment "author" "@bert-e wait"); EEvalPR 1 true false []; EEvalQueue [1%N];
              EDelete 1 0; EEvalPR 1 true false []; EEvalQueue [1%N]] in
  quiet_while_queued c12_h c12_w0 evs = true /\ map fst (run c12_h c12_w0 evs) = [1%N].
Proof. vm_compute. split; reflexivity. Qed.

Example c12_ex_witness_not_quiet : quiet_while_queued c12_h c12_w0 c12_witness_wait = false.
Proof. vm_compute. reflexivity. Qed.
