(* Proofs about Model/Reset.v against Spec/C15Spec.v: which commits the classification loop can absorb ([Clo]),
   when it says "lossy" and how far that depends on the order of `git log`; when the command refuses and what it
   deletes and declines; refutation witnesses and non-vacuity examples.
   Imported by Properties/C15.v only, which restates [full_statement] and [normal_statement] for [code_variant]
   (C15_full, C15_normal) and uses the theorems here by conversion. *)
From Coq Require Import List Bool Arith.
Require Import BertE.Model.Git BertE.Model.Reset BertE.Spec.C15Spec.
Require Import BertE.Proofs.GitProofs BertE.Proofs.FlowProofs.
Require Import BertE.Generated.Facts_C15.
Require Import BertE.Base.Lists.
Require BertE.Base.Str.
Import ListNotations.

Lemma mem_false a l : mem a l = false <-> ~ In a l.
Proof. rewrite <- mem_true. symmetry. apply not_true_iff_false. Qed.

Section Loop.
  Variable v : variant.
  Variable s : store.
  Variable seen : list cid.
  Variable dst : cid.
  Variable f0 : list cid.             (* the initial feature set *)
  (* "is listed by the git log of the integration branch"; abstract, because the loop only ever needs that the
     commits it is given satisfy it ([Wlisted] below is the instance) *)
  Variable Wp : cid -> Prop.

  (* the commits that can ever enter the feature set, whatever the order *)
  Inductive Clo : cid -> Prop :=
  | Clo_base x : In x f0 -> Clo x
  | Clo_join1 x p : Wp x -> mem x seen = false -> all_parents v = false ->
      parents_of s x = [p] -> (Clo p \/ anc s p dst = true) -> Clo x
  | Clo_joinA x : Wp x -> mem x seen = false -> all_parents v = true ->
      parents_of s x <> [] -> (forall p, In p (parents_of s x) -> Clo p \/ anc s p dst = true) -> Clo x.

  Definition run (l : list cid) (st : list cid * bool) : list cid * bool := fold_left (step v s seen dst) l st.

  (* the parent test of the variant, over any property of the parents: [joins] and the two join rules of [Clo] are
     its instances *)
  Definition passes (P : cid -> Prop) (x : cid) : Prop :=
    if all_parents v then parents_of s x <> [] /\ forall p, In p (parents_of s x) -> P p
    else exists p, parents_of s x = [p] /\ P p.

  Lemma passes_mono (P Q : cid -> Prop) x :
    (forall p, In p (parents_of s x) -> P p -> Q p) -> passes P x -> passes Q x.
  Proof.
    unfold passes. intro H. destruct (all_parents v).
    - intros [N A]. split; [exact N | intros p Hp; exact (H p Hp (A p Hp))].
    - intros (p & E & Pp). exists p. split; [exact E | apply H; [rewrite E; left; reflexivity | exact Pp]].
  Qed.

  (* whatever its shape, the test looks at the first parent *)
  Lemma passes_first_parent P x : passes P x -> exists p, first_parent s x = Some p /\ P p.
  Proof.
    unfold passes, first_parent. destruct (all_parents v).
    - intros [N A]. destruct (parents_of s x) as [|p t]; [contradiction N; reflexivity|].
      exists p. split; [reflexivity | apply A; left; reflexivity].
    - intros (p & -> & Pp). exists p. split; [reflexivity | exact Pp].
  Qed.

  Lemma parent_ok_true F p : parent_ok s F dst p = true <-> In p F \/ anc s p dst = true.
  Proof. unfold parent_ok. rewrite orb_true_iff, mem_true. tauto. Qed.

  Lemma joins_passes F x : joins v s F dst x = true <-> passes (fun p => In p F \/ anc s p dst = true) x.
  Proof.
    unfold joins, passes. destruct (all_parents v).
    - destruct (parents_of s x) as [|p t] eqn:E.
      + split; [discriminate | intros [N _]; contradiction N; reflexivity].
      + rewrite forallb_forall. split.
        * intro H. split; [discriminate | intros q Hq; apply parent_ok_true; exact (H q Hq)].
        * intros [_ H] q Hq. apply parent_ok_true. exact (H q Hq).
    - destruct (parents_of s x) as [|p [|q t]].
      + split; [discriminate | intros (p & E & _); discriminate E].
      + rewrite parent_ok_true. split.
        * intro H. exists p. split; [reflexivity | exact H].
        * intros (p' & E & H). injection E as <-. exact H.
      + split; [discriminate | intros (p' & E & _); discriminate E].
  Qed.

  Lemma Clo_iff x :
    Clo x <-> In x f0 \/ Wp x /\ mem x seen = false /\ passes (fun p => Clo p \/ anc s p dst = true) x.
  Proof.
    unfold passes. split.
    - intros [y I | y p W R A E H | y W R A N H]; [left; exact I | right; rewrite A ..].
      + split; [exact W | split; [exact R | exists p; split; [exact E | exact H]]].
      + split; [exact W | split; [exact R | split; [exact N | exact H]]].
    - intros [I | (W & R & H)]; [exact (Clo_base x I)|]. destruct (all_parents v) eqn:A.
      + destruct H as [N H]. exact (Clo_joinA x W R A N H).
      + destruct H as (p & E & H). exact (Clo_join1 x p W R A E H).
  Qed.

  (* one iteration: the commit is skipped, absorbed or flagged *)
  Variant step_view (st : list cid * bool) (x : cid) : list cid * bool -> Prop :=
  | step_skip : In x (fst st) \/ mem x seen = true -> step_view st x st
  | step_absorb : ~ In x (fst st) -> mem x seen = false -> joins v s (fst st) dst x = true ->
      step_view st x (x :: fst st, snd st)
  | step_flag : ~ In x (fst st) -> mem x seen = false -> joins v s (fst st) dst x = false ->
      step_view st x (fst st, true).

  Lemma step_spec st x : step_view st x (step v s seen dst st x).
  Proof.
    unfold step. destruct (mem x (fst st)) eqn:M; [apply step_skip; left; apply mem_true; exact M|].
    apply mem_false in M. destruct (mem x seen) eqn:R; [apply step_skip; right; exact R|].
    destruct (joins v s (fst st) dst x) eqn:J; [apply step_absorb | apply step_flag]; assumption.
  Qed.

  Lemma run_lossy_sticky l : forall st, snd st = true -> snd (run l st) = true.
  Proof.
    induction l as [|x l IH]; intros st H; [exact H|]. apply IH.
    destruct (step_spec st x); [exact H | exact H | reflexivity].
  Qed.

  Lemma step_feature_mono st x y : In y (fst st) -> In y (fst (step v s seen dst st x)).
  Proof. intro H. destruct (step_spec st x); [exact H | right; exact H | exact H]. Qed.

  (* every member of the feature set is in Clo, at every moment, for every order *)
  Definition sound (st : list cid * bool) : Prop := forall x, In x (fst st) -> Clo x.

  Lemma joins_Clo st x : sound st -> Wp x -> mem x seen = false -> joins v s (fst st) dst x = true -> Clo x.
  Proof.
    intros S W R J. apply Clo_iff. right. split; [exact W | split; [exact R|]].
    apply joins_passes in J. revert J. apply passes_mono.
    intros p _ [I | A]; [left; exact (S p I) | right; exact A].
  Qed.

  Lemma step_sound st x : Wp x -> sound st -> sound (step v s seen dst st x).
  Proof.
    intros W S. destruct (step_spec st x) as [_ | _ R J | _ _ _]; [exact S | | exact S].
    intros y [<- | Hy]; [exact (joins_Clo st x S W R J) | exact (S y Hy)].
  Qed.

  Lemma run_sound l : forall st, Forall Wp l -> sound st -> sound (run l st).
  Proof.
    induction l as [|x l IH]; intros st F S; [exact S|].
    inversion F as [|? ? Hx F']; subst. apply IH; [exact F' | apply step_sound; assumption].
  Qed.

  (* a listed commit that the author test does not skip and that cannot enter the feature set makes the loop
     answer "lossy" - whatever the order of the list *)
  Lemma run_flags l st x : Forall Wp l -> sound st -> In x l -> mem x seen = false -> ~ Clo x ->
    snd (run l st) = true.
  Proof.
    intros F S Hin R NC. apply in_split in Hin as (l1 & l2 & ->). apply Forall_app in F as [F1 F2].
    unfold run. rewrite fold_left_app. fold (run l1 st). apply (run_lossy_sticky l2).
    pose proof (run_sound l1 st F1 S) as S1.
    destruct (step_spec (run l1 st) x) as [[I | R'] | _ _ J | _ _ _].
    - contradiction (NC (S1 x I)).
    - rewrite R in R'. discriminate R'.
    - contradiction (NC (joins_Clo _ x S1 (Forall_inv F2) R J)).
    - reflexivity.
  Qed.

  (* orders consistent with ancestry: every listed parent comes before its child *)
  Definition topo (l : list cid) : Prop :=
    forall l1 c l2, l = l1 ++ c :: l2 -> forall p, In p (parents_of s c) -> In p l -> In p l1.

  (* while nothing is flagged, every commit listed so far is skipped by the author test or in the feature set *)
  Definition processed (l1 : list cid) (F : list cid) : Prop :=
    incl f0 F /\ forall x, In x l1 -> mem x seen = true \/ In x F.

  (* a step on y, all of whose listed parents came before: either it keeps the verdict, or y itself is the
     unskipped, unabsorbable commit *)
  Lemma step_processed l1 st y :
    processed l1 (fst st) -> (forall p, In p (parents_of s y) -> Wp p -> In p l1) ->
    processed (l1 ++ [y]) (fst (step v s seen dst st y)) /\ snd (step v s seen dst st y) = snd st \/
    mem y seen = false /\ ~ Clo y.
  Proof.
    intros [H0 K] T. destruct (step_spec st y) as [D | _ _ _ | N R J].
    - left. split; [split; [exact H0|] | reflexivity].
      intros x I. apply in_app_or in I as [I | [<- | []]]; [exact (K x I) | tauto].
    - left. split; [split; [apply incl_tl, H0|] | reflexivity].
      intros x I. apply in_app_or in I as [I | [<- | []]]; [|right; left; reflexivity].
      destruct (K x I); [left | right; right]; assumption.
    - right. split; [exact R|]. intro Cy. apply Clo_iff in Cy as [I | (_ & _ & P)]; [exact (N (H0 y I))|].
      apply not_true_iff_false in J. apply J, joins_passes. revert P. apply passes_mono.
      intros p Hp [Cp | A]; [left | right; exact A].
      (* an absorbable parent is an initial commit or a listed, unskipped one, which came before *)
      apply Clo_iff in Cp as [I | (W & R' & _)]; [exact (H0 p I)|].
      destruct (K p (T p Hp W)) as [S | I]; [rewrite R' in S; discriminate S | exact I].
  Qed.

  Lemma run_flags_only total : topo total -> (forall x, Wp x -> In x total) ->
    forall l l1 st, total = l1 ++ l -> processed l1 (fst st) -> snd st = false ->
    snd (run l st) = true -> exists x, In x l /\ mem x seen = false /\ ~ Clo x.
  Proof.
    intros T C. induction l as [|y l IH]; intros l1 st E K L H.
    - cbn in H. rewrite L in H. discriminate H.
    - destruct (step_processed l1 st y K) as [[K' L'] | B].
      + intros p Hp W. exact (T l1 y l E p Hp (C p W)).
      + destruct (IH (l1 ++ [y]) (step v s seen dst st y)) as (x & I & B); try assumption.
        * rewrite <- app_assoc. exact E.
        * rewrite L'. exact L.
        * exists x. split; [right; exact I | exact B].
      + exists y. split; [left; reflexivity | exact B].
  Qed.

  (* an order consistent with ancestry that lists everything: the verdict is exactly that *)
  Theorem run_exact l : Forall Wp l -> topo l -> (forall x, Wp x -> In x l) ->
    (snd (run l (f0, false)) = true <-> exists x, Wp x /\ mem x seen = false /\ ~ Clo x).
  Proof.
    intros F T C. split.
    - intro H. destruct (run_flags_only l T C l [] (f0, false) eq_refl) as (x & I & B);
        [split; [apply incl_refl | intros x []] | reflexivity | exact H|].
      exists x. split; [exact (proj1 (Forall_forall Wp l) F x I) | exact B].
    - intros (x & W & R & N). exact (run_flags l (f0, false) x F Clo_base (C x W) R N).
  Qed.
End Loop.

Definition Wlisted (v : variant) (s : store) (cd cw x : cid) : Prop := listed s (walk_merges v) cd cw x = true.
Definition F0 (v : variant) (s : store) (cd cs : cid) : list cid := log_set s (feature_merges v) cd cs.
(* the commits the loop can absorb into the feature set: current source commits, and (recursively) listed commits
   that pass the parent test *)
Definition Absorbed (v : variant) (s : store) (seen : list cid) (cs cd cw : cid) : cid -> Prop :=
  Clo v s seen cd (F0 v s cd cs) (Wlisted v s cd cw).

Section Classify.
  Variables (v : variant) (s : store) (seen : list cid) (cs cd cw : cid).

  Lemma walk_Forall order : Forall (Wlisted v s cd cw) (walk_of v s cd cw order).
  Proof. apply Forall_forall. intros x H. apply filter_In in H as [_ H]. exact H. Qed.

  Lemma classify_flags order x :
    Wlisted v s cd cw x -> In x order -> mem x seen = false -> ~ Absorbed v s seen cs cd cw x ->
    snd (classify v s seen cs cd cw order) = true.
  Proof.
    intros Hw Hin.
    apply (run_flags v s seen cd (F0 v s cd cs) (Wlisted v s cd cw) _ _ x (walk_Forall order)).
    - exact (Clo_base v s seen cd _ _).
    - apply filter_In. split; assumption.
  Qed.

  (* orders consistent with ancestry that list everything: the verdict is exactly that, hence the same for all *)
  Lemma classify_exact order :
    topo s (walk_of v s cd cw order) -> (forall x, Wlisted v s cd cw x -> In x order) ->
    (snd (classify v s seen cs cd cw order) = true <->
     exists x, Wlisted v s cd cw x /\ mem x seen = false /\ ~ Absorbed v s seen cs cd cw x).
  Proof.
    intros T C. apply (run_exact v s seen cd (F0 v s cd cs) (Wlisted v s cd cw) _ (walk_Forall order) T).
    intros x W. apply filter_In. split; [exact (C x W) | exact W].
  Qed.
End Classify.

(* An order that is not consistent with ancestry can add a refusal: old source commits 1 <- 2 (0 = destination,
   3 = current source, 4 = robot merge of 2 and 3): listed oldest first the loop absorbs 1 then 2; listed 2 before 1
   it calls 2 lossy. *)
Example order_matters :
  let s := [mkCommit [] false; mkCommit [0] false; mkCommit [1] false; mkCommit [0] false; mkCommit [2; 3] true] in
  let v := mkVariant false false false in
  snd (classify v s [] 3 0 4 [1; 2; 3]) = false /\ snd (classify v s [] 3 0 4 [2; 1; 3]) = true.
Proof. vm_compute. split; reflexivity. Qed.

Lemma has_true r n : has r n = true <-> exists x, lookup r n = Some x.
Proof.
  unfold has. destruct (lookup r n) as [x|].
  - split; [exists x; reflexivity | reflexivity].
  - split; [discriminate | intros [y E]; discriminate E].
Qed.

Definition refs_present (local : refmap) (src : name) (ws : list wbranch) : Prop :=
  has local src = true /\ forall wb, In wb ws -> has local (w_dst wb) = true /\ has local (w_name wb) = true.

Lemma lossy_any_present v s seen local src ws :
  refs_present local src ws -> exists l, lossy_any v s seen local src ws = Some l.
Proof.
  intros [Hs Hw]. induction ws as [|wb ws IH]; [exists false; reflexivity|].
  cbn [lossy_any]. apply has_true in Hs as [cs Es]. rewrite Es.
  destruct (Hw wb (or_introl eq_refl)) as [Hd Hn].
  apply has_true in Hd as [cd Ed]. apply has_true in Hn as [cw En]. rewrite Ed, En.
  destruct IH as [l El]; [intros w Hin; apply Hw; right; exact Hin|]. rewrite El.
  eexists. reflexivity.
Qed.

(* when every ref is there, the verdict is the disjunction of the verdicts of the branches *)
Lemma lossy_any_existsb v s seen local src ws l : lossy_any v s seen local src ws = Some l ->
  l = existsb (fun w => match lookup local src, lookup local (w_dst w), lookup local (w_name w) with
                        | Some cs, Some cd, Some cw => snd (classify v s seen cs cd cw (w_order w))
                        | _, _, _ => false
                        end) ws.
Proof.
  revert l. induction ws as [|w ws IH]; intros l H; cbn [lossy_any existsb] in *; [injection H as <-; reflexivity|].
  destruct (lookup local src); [|discriminate H].
  destruct (lookup local (w_dst w)); [|discriminate H]. destruct (lookup local (w_name w)); [|discriminate H].
  destruct (lossy_any v s seen local src ws) as [l'|]; [|discriminate H].
  injection H as <-. rewrite (IH l' eq_refl). reflexivity.
Qed.

Definition refused (remote : refmap) : result := mkRes LossyResetWarning remote [] 0 [].

(* the general form of the refusal: some existing integration branch lists a commit that the author test does
   not skip and that the loop cannot absorb *)
Theorem refuse_general prune v s seen snapshot remote src cands prs wb cs cd cw x :
  refs_present snapshot src (existing snapshot cands) ->
  In wb (existing snapshot cands) ->
  lookup snapshot src = Some cs -> lookup snapshot (w_dst wb) = Some cd -> lookup snapshot (w_name wb) = Some cw ->
  Wlisted v s cd cw x -> In x (w_order wb) -> mem x seen = false -> ~ Absorbed v s seen cs cd cw x ->
  reset_with prune v false s seen snapshot remote src cands prs = refused remote.
Proof.
  intros P Hin Es Ed En Hw Ho R NC. unfold reset_with.
  destruct (lossy_any_present v s seen snapshot src _ P) as [l El]. rewrite El.
  assert (l = true) as ->.
  { rewrite (lossy_any_existsb v s seen snapshot src _ l El). apply existsb_exists. exists wb.
    rewrite Es, Ed, En. exact (conj Hin (classify_flags v s seen cs cd cw (w_order wb) x Hw Ho R NC)). }
  revert Hin. destruct (existing snapshot cands); [intros [] | reflexivity].
Qed.

Definition names_of (snapshot : refmap) (cands : list wbranch) : list name := map w_name (existing snapshot cands).

Lemma remove_filter r n : remove r n = filter (fun kv => negb (Nat.eqb (fst kv) n)) r.
Proof.
  induction r as [|[k x] t IH]; [reflexivity|]. cbn [remove filter fst]. rewrite IH.
  destruct (Nat.eqb k n); reflexivity.
Qed.

Lemma remove_all_filter ns : forall r, remove_all r ns = filter (fun kv => negb (mem (fst kv) ns)) r.
Proof.
  unfold remove_all. induction ns as [|n ns IH]; intro r; cbn [fold_left].
  - symmetry. apply filter_all. reflexivity.
  - rewrite IH, remove_filter, filter_filter. apply filter_ext. intro kv. symmetry. apply negb_orb.
Qed.

Lemma lookup_remove_all ns r m : lookup (remove_all r ns) m = if mem m ns then None else lookup r m.
Proof.
  rewrite remove_all_filter, (lookup_filter_keep (fun k => negb (mem k ns))). destruct (mem m ns); reflexivity.
Qed.

Lemma keys_nodup_remove_all ns r : keys_nodup r -> keys_nodup (remove_all r ns).
Proof. rewrite remove_all_filter. apply NoDup_map_filter. Qed.

Lemma names_exist snapshot cands n : In n (names_of snapshot cands) ->
  In n (map w_name cands) /\ has snapshot n = true.
Proof.
  intro H. apply in_map_iff in H as (wb & <- & H). apply filter_In in H as [H1 H2].
  split; [apply in_map; exact H1 | exact H2].
Qed.

Lemma open_prs_of_spec prs names i : In i (open_prs_of prs names) ->
  exists p, In p prs /\ pr_id p = i /\ pr_open p = true /\ In (pr_src p) names.
Proof.
  intro H. apply in_map_iff in H as (p & <- & H). apply filter_In in H as [H1 H2].
  apply andb_true_iff in H2 as [H2 H3]. apply mem_true in H3. exists p. auto.
Qed.

Definition no_effect (remote : refmap) (r : result) : Prop :=
  r_remote r = remote /\ r_deleted r = [] /\ r_declined r = [].

(* the heads of the remote after the push of a reset *)
Lemma pushed_remote (prune : bool) s snapshot remote cands remote' :
  wf_store s -> keys_nodup snapshot ->
  let names := names_of snapshot cands in
  push_all_atomic s remote (remove_all snapshot names) (if prune then names else []) = Some remote' ->
  forall n, lookup remote' n =
            if mem n names then (if prune then None else lookup remote n)
            else match lookup snapshot n with Some x => Some x | None => lookup remote n end.
Proof.
  intros W ND names P n.
  destruct (push_all_atomic_spec s remote _ _ remote' W (keys_nodup_remove_all _ _ ND) P) as (A & B & _).
  pose proof (lookup_remove_all names snapshot n) as L.
  destruct (mem n names) eqn:M.
  - rewrite (B n L). destruct prune; [rewrite M; reflexivity | reflexivity].
  - destruct (lookup snapshot n) as [x|] eqn:Ls.
    + exact (A n x L).
    + rewrite (B n L). destruct prune; [rewrite M; reflexivity | reflexivity].
Qed.

(* a push of heads that the remote already has, with deletions of names it has, is accepted *)
Lemma push_own_accepted s remote local deleted :
  wf_store s -> (forall n x, lookup remote n = Some x -> x < length s) ->
  (forall n x, In (n, x) local -> lookup remote n = Some x) ->
  (forall n, In n deleted -> has remote n = true) ->
  push_all_atomic s remote local deleted <> None.
Proof.
  intros W Hb Hl Hd. unfold push_all_atomic.
  replace (forallb _ local) with true; [replace (forallb _ deleted) with true; [discriminate|]|]; symmetry.
  - apply forallb_forall. exact Hd.
  - apply forallb_forall. intros [n x] H. cbn [fst snd]. unfold ref_acceptable. rewrite (Hl n x H).
    apply anc_refl_b; [exact W | exact (Hb n x (Hl n x H))].
Qed.

Lemma untouched_refl own r : untouched own r r.
Proof. intros n _. reflexivity. Qed.

Lemma only_deletes_refl own r : only_deletes own r r.
Proof. intros n H. contradiction H. reflexivity. Qed.

(* the shape of every result *)
Section Reset.
  Variables (prune : bool) (v : variant) (force : bool) (s : store) (seen : list cid) (snapshot remote : refmap)
    (src : name) (cands : list wbranch) (prs : list pullreq).

  Variant reset_view : result -> Prop :=
  | reset_nothing : names_of snapshot cands = [] -> reset_view (mkRes ResetComplete remote [] 0 [])
  | reset_missing : reset_view (mkRes MissingRef remote [] 0 [])
  | reset_refused : force = false -> lossy_any v s seen snapshot src (existing snapshot cands) = Some true ->
      reset_view (refused remote)
  | reset_push_failed :
      push_all_atomic s remote (remove_all snapshot (names_of snapshot cands))
        (if prune then names_of snapshot cands else []) = None ->
      reset_view (mkRes PushFailed remote [] 1 [])
  | reset_pushed remote' :
      push_all_atomic s remote (remove_all snapshot (names_of snapshot cands))
        (if prune then names_of snapshot cands else []) = Some remote' ->
      reset_view (mkRes ResetComplete remote' (if prune then names_of snapshot cands else []) 1
                        (open_prs_of prs (names_of snapshot cands))).

  Lemma reset_spec : reset_view (reset_with prune v force s seen snapshot remote src cands prs).
  Proof.
    unfold reset_with. destruct (existing snapshot cands) as [|w0 ws0] eqn:E.
    - apply reset_nothing. unfold names_of. rewrite E. reflexivity.
    - rewrite <- E.
      destruct (lossy_any v s seen snapshot src (existing snapshot cands)) as [l|] eqn:L; [|apply reset_missing].
      destruct (l && negb force) eqn:B.
      + apply andb_prop in B as [-> B]. apply negb_true_iff in B. exact (reset_refused B L).
      + destruct (push_all_atomic s remote _ _) as [remote'|] eqn:P; [apply reset_pushed | apply reset_push_failed];
          exact P.
  Qed.

  Theorem scope_effects :
    let r := reset_with prune v force s seen snapshot remote src cands prs in
    (forall n, In n (r_deleted r) -> In n (map w_name cands) /\ has snapshot n = true) /\
    (forall i, In i (r_declined r) ->
       exists p, In p prs /\ pr_id p = i /\ pr_open p = true /\
                 In (pr_src p) (map w_name cands) /\ has snapshot (pr_src p) = true) /\
    r_pushes r <= 1 /\
    (r_outcome r <> ResetComplete -> no_effect remote r) /\
    (r_pushes r = 0 -> no_effect remote r).
  Proof.
    cbv zeta. unfold no_effect.
    destruct reset_spec as [_ | | _ _ | _ | remote' _];
      cbn [r_deleted r_declined r_pushes r_outcome r_remote refused].
    (* in the four cases without a successful push nothing was deleted or declined and the remote is as it was *)
    1-4: repeat split; try contradiction; auto.
    (* the push went through *)
    split; [|split; [|split; [|split]]].
    - intros n H. destruct prune; [|destruct H]. exact (names_exist _ _ _ H).
    - intros i H. apply open_prs_of_spec in H as (p & A & B & C & D). apply names_exist in D as [D1 D2].
      exists p. auto.
    - auto.
    - intro H. contradiction H. reflexivity.
    - discriminate.
  Qed.
End Reset.

(* Under the clone-time assumption (nobody wrote to the remote since the clone: remote = snapshot) the push is
   accepted, every name that is not an integration branch of this pull request keeps its value, and the only
   change is the disappearance of such names. *)
Theorem scope_snapshot prune v force s seen snapshot src cands prs :
  wf_store s -> keys_nodup snapshot -> (forall n x, lookup snapshot n = Some x -> x < length s) ->
  let r := reset_with prune v force s seen snapshot snapshot src cands prs in
  let own := fun n => mem n (map w_name cands) in
  r_outcome r <> PushFailed /\ untouched own snapshot (r_remote r) /\ only_deletes own snapshot (r_remote r).
Proof.
  intros W ND Hb. cbv zeta.
  destruct (reset_spec prune v force s seen snapshot snapshot src cands prs) as [_ | | _ _ | P | remote' P];
    cbn [r_outcome r_remote refused].
  1-3: split; [discriminate | split; [apply untouched_refl | apply only_deletes_refl]].
  - exfalso. revert P. apply push_own_accepted; [exact W | exact Hb | |].
    + intros n x H. rewrite remove_all_filter in H. apply filter_In in H as [H _]. exact (In_lookup _ _ _ ND H).
    + intros n H. destruct prune; [exact (proj2 (names_exist _ _ _ H)) | destruct H].
  - pose proof (pushed_remote prune s snapshot snapshot cands remote' W ND P) as SR. cbv zeta in SR.
    assert (Sub : forall n, mem n (names_of snapshot cands) = true -> mem n (map w_name cands) = true).
    { intros n H. apply mem_true. apply mem_true in H. exact (proj1 (names_exist _ _ _ H)). }
    split; [discriminate | split]; intros n Hn; rewrite SR in *;
      destruct (mem n (names_of snapshot cands)) eqn:M.
    + rewrite (Sub n M) in Hn. discriminate Hn.
    + destruct (lookup snapshot n); reflexivity.
    + split; [exact (Sub n M)|]. destruct prune; [reflexivity | contradiction Hn; reflexivity].
    + contradiction Hn. destruct (lookup snapshot n); reflexivity.
Qed.

Record well_formed (v : variant) (s : store) (seen : list cid) (h : pr_history)
    (snapshot : refmap) (src : name) (cands : list wbranch) : Prop := mkWF {
  (* the author test only ever answers yes for commits of the robot *)
  wf_seen : forall x, mem x seen = true -> robot_commit s x = true;
  (* source, destination branches of the existing integration branches are in the clone *)
  wf_refs : refs_present snapshot src (existing snapshot cands);
  (* the current version of the source branch is part of its history *)
  wf_hist : forall cs x, lookup snapshot src = Some cs -> anc s x cs = true -> In x (src_hist h);
  (* `git log dst..w` prints every commit it should *)
  wf_order : forall wb cd cw, In wb (existing snapshot cands) ->
      lookup snapshot (w_dst wb) = Some cd -> lookup snapshot (w_name wb) = Some cw ->
      forall x, Wlisted v s cd cw x -> In x (w_order wb)
}.

Definition on_branch (snapshot : refmap) (cands : list wbranch) (wb : wbranch) (cd cw : cid) : Prop :=
  In wb (existing snapshot cands) /\ lookup snapshot (w_dst wb) = Some cd /\ lookup snapshot (w_name wb) = Some cw.

(* the normal shape: the commit was made on a merge commit of the robot which is neither part of the source
   history nor contained in the destination branch *)
Definition normal_shape (s : store) (h : pr_history) (cd c : cid) : Prop :=
  forall p, first_parent s c = Some p ->
    is_merge s p = true /\ robot_commit s p = true /\ ~ In p (src_hist h) /\ anc s p cd = false.

(* the author test recognises the robot's merge commits (only needed when the parent test looks at all parents) *)
Definition robot_merges_seen (v : variant) (s : store) (seen : list cid) : Prop :=
  all_parents v = true -> forall p, robot_commit s p = true -> is_merge s p = true -> mem p seen = true.

Lemma listed_anc s merges a b x : listed s merges a b x = true -> anc s x b = true.
Proof.
  unfold listed, in_range. intro H. apply andb_true_iff in H as [H _]. apply andb_true_iff in H as [H _]. exact H.
Qed.

Lemma F0_in_source v s cd cs x : In x (F0 v s cd cs) -> anc s x cs = true.
Proof. intro H. apply filter_In in H as [_ H]. exact (listed_anc _ _ _ _ _ H). Qed.

(* Neither the manual commit nor the robot's merge under it is a source commit; the test on the manual commit
   looks at that merge, which is outside the destination and cannot be absorbed itself: with the one-parent test
   because it is a merge, with the all-parents test because the author test skips it. *)
Lemma normal_shape_not_absorbed v s seen h cs cd cw c :
  (forall x, anc s x cs = true -> In x (src_hist h)) -> robot_merges_seen v s seen ->
  ~ In c (src_hist h) -> normal_shape s h cd c -> ~ Absorbed v s seen cs cd cw c.
Proof.
  intros Hh Rs Nc N C.
  assert (NF : forall x, ~ In x (src_hist h) -> ~ In x (F0 v s cd cs)).
  { intros x Nx I. exact (Nx (Hh x (F0_in_source _ _ _ _ _ I))). }
  apply Clo_iff in C as [I | (_ & _ & P)]; [exact (NF c Nc I)|].
  apply passes_first_parent in P as (p & E & H). destruct (N p E) as (Mp & Rp & Np & Dp).
  destruct H as [Cp | Dp']; [|rewrite Dp in Dp'; discriminate Dp'].
  apply Clo_iff in Cp as [I | (_ & Sn & P)]; [exact (NF p Np I)|].
  unfold passes in P. destruct (all_parents v) eqn:A.
  - rewrite (Rs A p Rp Mp) in Sn. discriminate Sn.
  - destruct P as (q & Eq & _). unfold is_merge in Mp. rewrite Eq in Mp. discriminate Mp.
Qed.

(* The refusal, for a manual commit in the normal shape that the walk lists *)
Theorem refuse_partial prune v s seen h snapshot remote src cands prs wb cd cw c :
  well_formed v s seen h snapshot src cands -> robot_merges_seen v s seen ->
  on_branch snapshot cands wb cd cw -> held s cw cd c -> manual s h (w_name wb) c ->
  normal_shape s h cd c ->
  walk_merges v = true \/ is_merge s c = false ->
  reset_with prune v false s seen snapshot remote src cands prs = refused remote.
Proof.
  intros [Ws Wr Wh Wo] Rs (Hin & Ed & En) [Hw Hd] M N K.
  destruct (proj1 (has_true _ _) (proj1 Wr)) as [cs Es].
  assert (Hh : forall x, anc s x cs = true -> In x (src_hist h)) by (intros x; apply Wh; exact Es).
  assert (L : Wlisted v s cd cw c).
  { unfold Wlisted, listed, in_range, kept. rewrite Hw, Hd. cbn [andb negb].
    destruct K as [-> | ->]; [reflexivity | apply orb_true_r]. }
  apply (refuse_general prune v s seen snapshot remote src cands prs wb cs cd cw c); try assumption.
  - exact (Wo wb cd cw Hin Ed En c L).
  - apply not_true_iff_false. intro Sc. destruct M as (Rc & _). rewrite (Ws c Sc) in Rc. discriminate Rc.
  - exact (normal_shape_not_absorbed v s seen h cs cd cw c Hh Rs (proj1 (proj2 M)) N).
Qed.

Definition refuses (v : variant) (s : store) (seen : list cid) (snapshot remote : refmap) (src : name)
    (cands : list wbranch) (prs : list pullreq) : Prop :=
  reset v false s seen snapshot remote src cands prs = refused remote.

(* the statement at full strength *)
Definition full_statement (v : variant) : Prop :=
  forall s seen h snapshot remote src cands prs wb cd cw c,
  well_formed v s seen h snapshot src cands -> robot_merges_seen v s seen ->
  on_branch snapshot cands wb cd cw -> held s cw cd c -> manual s h (w_name wb) c ->
  refuses v s seen snapshot remote src cands prs.

(* ... restricted to the normal shape (manual work made on a merge commit of the robot) *)
Definition normal_statement (v : variant) : Prop :=
  forall s seen h snapshot remote src cands prs wb cd cw c,
  well_formed v s seen h snapshot src cands -> robot_merges_seen v s seen ->
  on_branch snapshot cands wb cd cw -> held s cw cd c -> manual s h (w_name wb) c ->
  normal_shape s h cd c ->
  refuses v s seen snapshot remote src cands prs.

(* ... and further to manual commits that are not merge commits *)
Definition nonmerge_statement (v : variant) : Prop :=
  forall s seen h snapshot remote src cands prs wb cd cw c,
  well_formed v s seen h snapshot src cands -> robot_merges_seen v s seen ->
  on_branch snapshot cands wb cd cw -> held s cw cd c -> manual s h (w_name wb) c ->
  normal_shape s h cd c -> is_merge s c = false ->
  refuses v s seen snapshot remote src cands prs.

Theorem nonmerge_holds v : nonmerge_statement v.
Proof.
  unfold nonmerge_statement, refuses, reset. eauto using refuse_partial.
Qed.

Theorem normal_holds_when_merges_walked v : walk_merges v = true -> normal_statement v.
Proof.
  unfold normal_statement, refuses, reset. eauto using refuse_partial.
Qed.

(* On a concrete repository the hypotheses are decided by evaluation: every commit that [anc] relates to c is a
   member of the c-th ancestor set, so a quantifier over such commits is a [forallb] over that set. *)
Lemma Wlisted_check v s cd cw l :
  forallb (fun x => negb (listed s (walk_merges v) cd cw x) || mem x l) (nth cw (ancs s) []) = true ->
  forall x, Wlisted v s cd cw x -> In x l.
Proof.
  intros H x L. apply mem_true.
  pose proof (proj1 (forallb_forall _ _) H x (proj1 (mem_true _ _) (listed_anc _ _ _ _ _ L))) as Hx.
  cbv beta in Hx. unfold Wlisted in L. rewrite L in Hx. exact Hx.
Qed.

Definition well_formed_b (v : variant) (s : store) (seen : list cid) (h : pr_history)
    (snapshot : refmap) (src : name) (cands : list wbranch) : bool :=
  forallb (robot_commit s) seen &&
  (has snapshot src &&
   forallb (fun wb => has snapshot (w_dst wb) && has snapshot (w_name wb)) (existing snapshot cands)) &&
  match lookup snapshot src with
  | Some cs => forallb (fun x => mem x (src_hist h)) (nth cs (ancs s) [])
  | None => true
  end &&
  forallb (fun wb => match lookup snapshot (w_dst wb), lookup snapshot (w_name wb) with
                     | Some cd, Some cw =>
                         forallb (fun x => negb (listed s (walk_merges v) cd cw x) || mem x (w_order wb))
                                 (nth cw (ancs s) [])
                     | _, _ => true
                     end) (existing snapshot cands).

Lemma well_formed_b_sound v s seen h snapshot src cands :
  well_formed_b v s seen h snapshot src cands = true -> well_formed v s seen h snapshot src cands.
Proof.
  unfold well_formed_b. intro H. apply andb_prop in H as [H Ho]. apply andb_prop in H as [H Hh].
  apply andb_prop in H as [Hs Hr]. apply andb_prop in Hr as [Hr Hw]. split.
  - intros x H. exact (proj1 (forallb_forall _ _) Hs x (proj1 (mem_true _ _) H)).
  - split; [exact Hr|]. intros wb H. exact (andb_prop _ _ (proj1 (forallb_forall _ _) Hw wb H)).
  - intros cs x E A. rewrite E in Hh. apply mem_true. exact (proj1 (forallb_forall _ _) Hh x (proj1 (mem_true _ _) A)).
  - intros wb cd cw H Ed En. pose proof (proj1 (forallb_forall _ _) Ho wb H) as Hx. cbv beta in Hx.
    rewrite Ed, En in Hx. exact (Wlisted_check v s cd cw _ Hx).
Qed.

Lemma robot_merges_seen_check v s seen :
  forallb (fun p => negb (robot_commit s p && is_merge s p) || mem p seen) (seq 0 (length s)) = true ->
  robot_merges_seen v s seen.
Proof.
  intros H _ p R M. assert (I : In p (seq 0 (length s))).
  { apply in_seq. split; [apply Nat.le_0_l|]. apply nth_error_Some. intro E.
    unfold robot_commit in R. rewrite E in R. discriminate R. }
  pose proof (proj1 (forallb_forall _ _) H p I) as Hp. cbv beta in Hp. rewrite R, M in Hp. exact Hp.
Qed.

(* the monitor's test implies the specification's notion *)
Lemma manual_b_sound s h w c : manual_b s h w c = true -> manual s h w c.
Proof.
  unfold manual_b, manual. intro H. apply andb_prop in H as [H P]. apply andb_prop in H as [R N].
  apply negb_true_iff in R. apply negb_true_iff, mem_false in N. split; [exact R | split; [exact N|]].
  destruct (first_parent s c) as [p|]; [|discriminate P].
  exists p. split; [reflexivity | apply mem_true; exact P].
Qed.

(* witness 1 (F8): the integration branch is a fast-forward of the source branch.
   commits: 0 = tip of both development branches, 1 = the source commit (w/ was fast-forwarded to it),
   2 = a commit of the author on top of w/.  names: 0 = destination of w/, 1 = source, 10 = w/. *)
Definition f8_store : store := [mkCommit [] false; mkCommit [0] false; mkCommit [1] false].
Definition f8_hist : pr_history := mkHist [0; 1] [(10, [1; 2])].
Definition f8_refs : refmap := [(0, 0); (1, 1); (10, 2)].
Definition f8_cands : list wbranch := [mkW 10 0 [1; 2]].

Theorem full_refuted v : ~ full_statement v.
Proof.
  intro F.
  assert (R : refuses v f8_store [] f8_refs f8_refs 1 f8_cands []).
  { apply (F f8_store [] f8_hist f8_refs f8_refs 1 f8_cands [] (mkW 10 0 [1; 2]) 0 2 2).
    - apply well_formed_b_sound. unfold well_formed_b. destruct (walk_merges v); reflexivity.
    - apply robot_merges_seen_check. reflexivity.
    - repeat split. left; reflexivity.
    - split; reflexivity.
    - apply manual_b_sound. reflexivity. }
  destruct v as [[] [] []]; vm_compute in R; discriminate R.
Qed.

(* witness 2: a merge commit of the author on top of the robot's merge commit.
   commits: 0 root, 1 = destination tip, 2 = first source commit, 3 = robot merge of (1, 2) = w/,
   4 = second source commit, 5 = the author's merge of the source (4) into w/ (3).
   names: 0 = destination, 1 = source, 10 = w/. *)
Definition mg_store : store :=
  [mkCommit [] false; mkCommit [0] false; mkCommit [0] false; mkCommit [1; 2] true; mkCommit [2] false;
   mkCommit [3; 4] false].
Definition mg_hist : pr_history := mkHist [0; 2; 4] [(10, [3; 5])].
Definition mg_refs : refmap := [(0, 1); (1, 4); (10, 5)].
Definition mg_cands (order : list cid) : list wbranch := [mkW 10 0 order].

Theorem normal_refuted_when_merges_hidden v : walk_merges v = false -> ~ normal_statement v.
Proof.
  intros Wm F.
  assert (R : refuses v mg_store [3] mg_refs mg_refs 1 (mg_cands [2; 4]) []).
  { apply (F mg_store [3] mg_hist mg_refs mg_refs 1 (mg_cands [2; 4]) [] (mkW 10 0 [2; 4]) 1 5 5).
    - apply well_formed_b_sound. unfold well_formed_b. rewrite Wm. reflexivity.
    - apply robot_merges_seen_check. reflexivity.
    - repeat split. left; reflexivity.
    - split; reflexivity.
    - apply manual_b_sound. reflexivity.
    - intros p E. injection E as <-. repeat split. apply mem_false. reflexivity. }
  destruct v as [fm wm ap]. cbn in Wm. subst wm. destruct fm, ap; vm_compute in R; discriminate R.
Qed.

(* non-vacuity: the same history with a plain commit (5, on top of the robot's merge 3) instead of a merge is
   refused by the code as it is; with the merge commit it is refused as soon as merges are walked *)
Definition pl_store : store :=
  [mkCommit [] false; mkCommit [0] false; mkCommit [0] false; mkCommit [1; 2] true; mkCommit [2] false;
   mkCommit [3] false].

Example plain_manual_refused :
  reset code_variant false pl_store [3] mg_refs mg_refs 1 (mg_cands [2; 4; 5]) [] = refused mg_refs /\
  manual pl_store mg_hist 10 5 /\ held pl_store 5 1 5 /\ normal_shape pl_store mg_hist 1 5 /\
  is_merge pl_store 5 = false.
Proof.
  split; [vm_compute; reflexivity|]. split; [apply manual_b_sound; reflexivity|]. split; [split; reflexivity|].
  split; [|reflexivity]. intros p E. injection E as <-. repeat split. apply mem_false. reflexivity.
Qed.

Example merge_manual_refused_once_walked :
  reset (mkVariant true true true) false mg_store [3] mg_refs mg_refs 1 (mg_cands [2; 3; 4; 5]) [] = refused mg_refs /\
  reset (mkVariant false false false) false mg_store [3] mg_refs mg_refs 1 (mg_cands [2; 4]) [] <> refused mg_refs.
Proof. split; [vm_compute; reflexivity | vm_compute; discriminate]. Qed.

(* non-vacuity of the hypotheses of the refusal theorems, for whatever variant the code has *)
Example partial_hypotheses_satisfiable :
  well_formed code_variant pl_store [3] mg_hist mg_refs 1 (mg_cands [2; 3; 4; 5]) /\
  robot_merges_seen code_variant pl_store [3] /\
  on_branch mg_refs (mg_cands [2; 3; 4; 5]) (mkW 10 0 [2; 3; 4; 5]) 1 5.
Proof.
  split; [apply well_formed_b_sound; reflexivity|].
  split; [apply robot_merges_seen_check; reflexivity | repeat split; left; reflexivity].
Qed.

(* an order consistent with ancestry and complete exists: the hypotheses of the exactness theorems *)
Example order_hypotheses_satisfiable :
  topo pl_store (walk_of (mkVariant false false false) pl_store 1 5 [2; 4; 5]) /\
  (forall x, Wlisted (mkVariant false false false) pl_store 1 5 x -> In x [2; 4; 5]).
Proof.
  split; [|apply Wlisted_check; reflexivity].
  change (walk_of (mkVariant false false false) pl_store 1 5 [2; 4; 5]) with [2; 5].
  intros l1 c l2 E p Hp Hin.
  destruct l1 as [|a [|b l1]].
  - injection E as <- _. destruct Hp as [<-|[]]. destruct Hin as [H|[H|[]]]; discriminate H.
  - injection E as <- <- _. destruct Hp as [<-|[]]. destruct Hin as [H|[H|[]]]; discriminate H.
  - injection E as _ _ E. destruct l1; discriminate E.
Qed.

(* scope, on a concrete repository: names 11 (an integration branch of another pull request), 12 (a queue branch)
   and the source / destination keep their value; only the open pull request of the deleted branch is declined *)
Example scope_example :
  let refs := mg_refs ++ [(11, 3); (12, 1)] in
  let prs := [mkPR 5 10 true; mkPR 6 1 true; mkPR 7 11 true; mkPR 8 10 false] in
  let r := reset code_variant true pl_store [3] refs refs 1 (mg_cands [2; 3; 4; 5]) prs in
  r_outcome r = ResetComplete /\ r_deleted r = [10] /\ r_declined r = [5] /\ r_pushes r = 1 /\
  lookup (r_remote r) 10 = None /\ lookup (r_remote r) 11 = Some 3 /\ lookup (r_remote r) 12 = Some 1 /\
  lookup (r_remote r) 0 = Some 1 /\ lookup (r_remote r) 1 = Some 4.
Proof. vm_compute. repeat split. Qed.

(* The names of the integration branches pass the guard of Branch.remove.  Both proofs evaluate generated facts:
   [wname_shape] reads Facts_C15.w_format, [wname_guard] finds "w/" among Facts_C15.remove_guard_prefixes.
   String is imported only here because it shadows [length]. *)
From Coq Require Import String.
Lemma wname_shape version src : wname version src = ("w/" ++ version ++ "/" ++ src ++ "")%string.
Proof. reflexivity. Qed.

Theorem wname_guard version src : remove_allowed (wname version src) = true.
Proof.
  apply existsb_exists. exists "w/"%string. split.
  - cbn. auto.
  - rewrite wname_shape. apply Str.prefix_sapp.
Qed.
