(* Lemmas about the commit-DAG model of Model/Git.v: ancestry is a preorder that is stable under adding
   commits; a merge result contains HEAD and every source; push acceptance.  [wf_store], [Anc] and [extends] are
   the predicates the property theorems are stated in.  Base/Lists.v is re-exported: every proof file above this
   one sees its list facts through it. *)
From Coq Require Import List Bool Arith Lia.
Require Export BertE.Base.Lists.
Require Import BertE.Model.Git.
Import ListNotations.

Lemma NoDup_single {A} (r : A) l : NoDup l -> In r l -> (forall x, In x l -> x = r) -> l = [r].
Proof.
  intros ND Hr All. destruct l as [|a [|b t]]; [destruct Hr | |].
  - rewrite (All a (or_introl eq_refl)). reflexivity.
  - exfalso. inversion ND as [|? ? Hn _]. apply Hn. left.
    rewrite (All a), (All b); [reflexivity | right; left; reflexivity | left; reflexivity].
Qed.

Definition wf_store (s : store) : Prop :=
  forall i c, nth_error s i = Some c -> forall p, In p (parents c) -> p < i.

Inductive Anc (s : store) : cid -> cid -> Prop :=
| Anc_refl b : b < length s -> Anc s b b
| Anc_step a b p : In p (parents_of s b) -> Anc s a p -> Anc s a b.

Lemma parents_of_app_l s t b : b < length s -> parents_of (s ++ t) b = parents_of s b.
Proof. intro H. unfold parents_of. rewrite nth_error_app1 by exact H. reflexivity. Qed.

Lemma parents_of_snoc_last s c : parents_of (s ++ [c]) (length s) = parents c.
Proof.
  unfold parents_of. rewrite nth_error_app2 by lia. rewrite Nat.sub_diag. reflexivity.
Qed.

Lemma parents_of_lt s b p : In p (parents_of s b) -> b < length s.
Proof.
  intro H. apply nth_error_Some. unfold parents_of in H. destruct (nth_error s b); [discriminate | destruct H].
Qed.

Lemma wf_parent_lt s b p : wf_store s -> In p (parents_of s b) -> p < b.
Proof.
  intros W H. unfold parents_of in H. destruct (nth_error s b) as [c|] eqn:E; [|destruct H].
  exact (W b c E p H).
Qed.

Lemma Anc_trans s a b c : Anc s a b -> Anc s b c -> Anc s a c.
Proof.
  intros Hab Hbc. induction Hbc as [c Hc | b c p Hp Hbp IH].
  - exact Hab.
  - eapply Anc_step; [exact Hp | apply IH; exact Hab].
Qed.

Lemma Anc_mono s t a b : Anc s a b -> Anc (s ++ t) a b.
Proof.
  intro H. induction H as [b Hb | a b p Hp Hap IH].
  - apply Anc_refl. rewrite app_length. lia.
  - eapply Anc_step; [|exact IH].
    rewrite parents_of_app_l; [exact Hp | eapply parents_of_lt; exact Hp].
Qed.

Lemma Anc_right_lt s a b : Anc s a b -> b < length s.
Proof. intro H. destruct H as [b Hb | a b p Hp _]; [exact Hb | eapply parents_of_lt; exact Hp]. Qed.

Lemma Anc_le s a b : wf_store s -> Anc s a b -> a <= b.
Proof.
  intros W H. induction H as [b Hb | a b p Hp Hap IH]; [lia|].
  pose proof (wf_parent_lt s b p W Hp). lia.
Qed.

Lemma Anc_left_lt s a b : wf_store s -> Anc s a b -> a < length s.
Proof. intros W H. pose proof (Anc_le s a b W H). pose proof (Anc_right_lt s a b H). lia. Qed.

Lemma wf_app_l s t : wf_store (s ++ t) -> wf_store s.
Proof.
  intros W i c E p Hp. apply (W i c); [|exact Hp].
  rewrite nth_error_app1; [exact E | apply nth_error_Some; rewrite E; discriminate].
Qed.

Lemma wf_snoc s ps r : wf_store s -> Forall (fun p => p < length s) ps -> wf_store (s ++ [mkCommit ps r]).
Proof.
  intros W F i c E p Hp. apply nth_error_snoc in E as [E|[-> ->]]; [exact (W i c E p Hp)|].
  rewrite Forall_forall in F. exact (F p Hp).
Qed.

Lemma Anc_prefix s t a b : wf_store (s ++ t) -> Anc (s ++ t) a b -> b < length s -> Anc s a b.
Proof.
  intros W H. induction H as [b Hb | a b p Hp Hap IH]; intro L.
  - apply Anc_refl. exact L.
  - pose proof (wf_parent_lt _ b p W Hp) as Hlt.
    rewrite parents_of_app_l in Hp by exact L.
    eapply Anc_step; [exact Hp | apply IH; lia].
Qed.

Lemma build_ancs_app t1 t2 acc : build_ancs (t1 ++ t2) acc = build_ancs t2 (build_ancs t1 acc).
Proof. revert acc. induction t1 as [|c t IH]; intro acc; cbn; [reflexivity | apply IH]. Qed.

Lemma ancs_snoc s c :
  ancs (s ++ [c]) = ancs s ++ [length (ancs s) :: flat_map (fun p => nth p (ancs s) []) (parents c)].
Proof. unfold ancs. rewrite build_ancs_app. reflexivity. Qed.

Lemma length_ancs s : length (ancs s) = length s.
Proof.
  induction s as [|c s IH] using rev_ind; [reflexivity|].
  rewrite ancs_snoc, !app_length, IH. reflexivity.
Qed.

Lemma mem_true a l : mem a l = true <-> In a l.
Proof. exact (existsb_eqb_In Nat.eqb Nat.eqb_eq a l). Qed.

Lemma In_ancs s : wf_store s -> forall a b, In a (nth b (ancs s) []) <-> Anc s a b.
Proof.
  (* the store grows at the end: the sets of the old commits are unchanged, the new commit's set is itself plus the
     sets of its parents *)
  induction s as [|c s IH] using rev_ind; intros W a b.
  - split; [destruct b; intros [] | intro H; apply Anc_right_lt in H; inversion H].
  - pose proof (wf_app_l _ _ W) as Ws. specialize (IH Ws). rewrite ancs_snoc.
    destruct (Nat.lt_trichotomy b (length s)) as [L|[->|G]].
    + rewrite app_nth1, IH by (rewrite length_ancs; exact L).
      split; [apply Anc_mono | intro H; exact (Anc_prefix _ _ _ _ W H L)].
    + rewrite app_nth2, length_ancs, Nat.sub_diag by (rewrite length_ancs; lia).
      cbn [nth In]. rewrite in_flat_map. split.
      * intros [<-|(p & Hp & Ha)].
        -- apply Anc_refl. rewrite app_length. cbn. lia.
        -- eapply Anc_step; [rewrite parents_of_snoc_last; exact Hp | apply Anc_mono, IH, Ha].
      * intro H. inversion H as [b' Hb' | a' b' p Hp Hap]; subst; [left; reflexivity | right].
        rewrite parents_of_snoc_last in Hp. exists p. split; [exact Hp|]. apply IH.
        apply (Anc_prefix _ _ _ _ W Hap). apply (W (length s) c); [|exact Hp].
        rewrite nth_error_app2, Nat.sub_diag by lia. reflexivity.
    + rewrite app_nth2, length_ancs by (rewrite length_ancs; lia). split.
      * destruct (b - length s) as [|[|k]] eqn:D; [lia | intros [] | intros []].
      * intro H. apply Anc_right_lt in H. rewrite app_length in H. cbn in H. lia.
Qed.

Lemma anc_spec s : wf_store s -> forall a b, anc s a b = true <-> Anc s a b.
Proof. intros W a b. unfold anc. rewrite mem_true. apply In_ancs, W. Qed.

Lemma anc_refl_b s b : wf_store s -> b < length s -> anc s b b = true.
Proof. intros W L. apply anc_spec; [exact W | apply Anc_refl; exact L]. Qed.

Lemma anc_trans_b s a b c : wf_store s -> anc s a b = true -> anc s b c = true -> anc s a c = true.
Proof.
  intros W H1 H2. apply anc_spec; [exact W|]. apply anc_spec in H1; [|exact W]. apply anc_spec in H2; [|exact W].
  exact (Anc_trans _ _ _ _ H1 H2).
Qed.

Lemma dedupe_nodup l : dedupe l = nodup Nat.eq_dec l.
Proof.
  induction l as [|x t IH]; cbn; [reflexivity|]. rewrite IH.
  destruct (in_dec Nat.eq_dec x t) as [H|H].
  - apply mem_true in H. rewrite H. reflexivity.
  - destruct (mem x t) eqn:M; [apply mem_true in M; contradiction | reflexivity].
Qed.

Lemma dedupe_In x l : In x (dedupe l) <-> In x l.
Proof. rewrite dedupe_nodup. apply nodup_In. Qed.

Lemma dedupe_NoDup l : NoDup (dedupe l).
Proof. rewrite dedupe_nodup. apply NoDup_nodup. Qed.

Lemma dedupe_first_In x l : In x (rev (dedupe (rev l))) <-> In x l.
Proof. rewrite <- in_rev, dedupe_In, <- in_rev. tauto. Qed.

Lemma reduce_In s l h : In h (reduce s l) -> In h l.
Proof. unfold reduce. rewrite filter_In. tauto. Qed.

Lemma reduce_dominated s l : wf_store s -> (forall h, In h l -> h < length s) ->
  forall h, In h l -> exists h', In h' (reduce s l) /\ Anc s h h'.
Proof.
  (* climb from [h] to a head that dominates it while there is one: each step goes to a larger commit number *)
  intros W F.
  assert (G : forall n h, length s - h <= n -> In h l -> exists h', In h' (reduce s l) /\ Anc s h h').
  { induction n as [|n IH]; intros h Hn Hh.
    - specialize (F h Hh). lia.
    - destruct (existsb (fun h' => negb (Nat.eqb h h') && anc s h h') l) eqn:E.
      + apply existsb_exists in E as [h1 [H1 E]]. apply andb_true_iff in E as [Ne A].
        apply negb_true_iff, Nat.eqb_neq in Ne. apply anc_spec in A; [|exact W].
        pose proof (Anc_le s h h1 W A).
        destruct (IH h1) as [h' [K A']]; [lia | exact H1 |].
        exists h'. split; [exact K | exact (Anc_trans _ _ _ _ A A')].
      + exists h. split.
        * unfold reduce. apply filter_In. split; [exact Hh | rewrite E; reflexivity].
        * apply Anc_refl. exact (F h Hh). }
  intros h Hh. exact (G (length s) h ltac:(lia) Hh).
Qed.

Definition extends (s s' : store) : Prop := exists ext, s' = s ++ ext.

Lemma extends_refl s : extends s s.
Proof. exists []. rewrite app_nil_r. reflexivity. Qed.

Lemma extends_trans a b c : extends a b -> extends b c -> extends a c.
Proof. intros [x ->] [y ->]. exists (x ++ y). rewrite app_assoc. reflexivity. Qed.

Lemma extends_Anc s s' a b : extends s s' -> Anc s a b -> Anc s' a b.
Proof. intros [ext ->]. apply Anc_mono. Qed.

Lemma extends_length s s' : extends s s' -> length s <= length s'.
Proof. intros [ext ->]. rewrite app_length. lia. Qed.

(* What `git merge` decides: HEAD and every source are contained in the commit the branch moves to, or in one
   of the parents of the commit that is created.  The sources that are not in HEAD already are dominated by
   the reduced heads; HEAD is a parent too unless one of those contains it. *)
Lemma git_merge_covers s head srcs :
  wf_store s -> head < length s -> Forall (fun x => x < length s) srcs ->
  match git_merge s head srcs with
  | UpToDate => forall x, In x srcs -> Anc s x head
  | FastForward r => forall x, In x (head :: srcs) -> Anc s x r
  | Merged ps => Forall (fun p => p < length s) ps /\
                 forall x, In x (head :: srcs) -> exists p, In p ps /\ Anc s x p
  end.
Proof.
  intros W Hh F. rewrite Forall_forall in F. unfold git_merge. set (cand := filter _ _).
  assert (Fc : forall x, In x cand -> x < length s).
  { intros x Hx. apply filter_In in Hx as [Hx _]. rewrite dedupe_first_In in Hx. exact (F x Hx). }
  assert (Dom : forall x, In x srcs -> Anc s x head \/ exists r, In r (reduce s cand) /\ Anc s x r).
  { intros x Hx. destruct (anc s x head) eqn:A.
    - left. apply anc_spec; assumption.
    - right. apply (reduce_dominated s cand W Fc). apply filter_In. split.
      + rewrite dedupe_first_In. exact Hx.
      + rewrite A. reflexivity. }
  assert (Hcons : forall x, In x (head :: srcs) -> exists p, In p (head :: reduce s cand) /\ Anc s x p).
  { intros x [<-|Hx].
    - exists head. split; [left; reflexivity | apply Anc_refl; exact Hh].
    - destruct (Dom x Hx) as [A|(r & Hr & A)].
      + exists head. split; [left; reflexivity | exact A].
      + exists r. split; [right; exact Hr | exact A]. }
  assert (Hsub : forall r0, In r0 (reduce s cand) -> Anc s head r0 ->
                 forall x, In x (head :: srcs) -> exists p, In p (reduce s cand) /\ Anc s x p).
  { intros r0 Hr0 A0 x [<-|Hx]; [exists r0; split; assumption|].
    destruct (Dom x Hx) as [A|(r & Hr & A)].
    - exists r0. split; [exact Hr0 | exact (Anc_trans _ _ _ _ A A0)].
    - exists r. split; assumption. }
  assert (Fr : Forall (fun x => x < length s) (reduce s cand)).
  { apply Forall_forall. intros x Hx. exact (Fc x (reduce_In _ _ _ Hx)). }
  destruct (reduce s cand) as [|r [|r2 rest]] eqn:R.
  - intros x Hx. destruct (Hcons x (or_intror Hx)) as (p & [<-|[]] & A). exact A.
  - destruct (anc s head r) eqn:AH.
    + apply anc_spec in AH; [|exact W].
      intros x Hx. destruct (Hsub r (or_introl eq_refl) AH x Hx) as (p & [<-|[]] & A). exact A.
    + split; [constructor; assumption | exact Hcons].
  - destruct (existsb (fun r0 => anc s head r0) (r :: r2 :: rest)) eqn:Sub.
    + apply existsb_exists in Sub as (r0 & Hr0 & A0). apply anc_spec in A0; [|exact W].
      split; [exact Fr | exact (Hsub r0 Hr0 A0)].
    + split; [constructor; assumption | exact Hcons].
Qed.

Theorem merge_contains s head srcs :
  wf_store s -> head < length s -> Forall (fun x => x < length s) srcs ->
  let s' := fst (apply_merge s head srcs) in
  let t := snd (apply_merge s head srcs) in
  wf_store s' /\ extends s s' /\ t < length s' /\ Anc s' head t /\ (forall x, In x srcs -> Anc s' x t).
Proof.
  intros W Hh F. pose proof (git_merge_covers s head srcs W Hh F) as C.
  unfold apply_merge. cbv zeta. destruct (git_merge s head srcs) as [|r|ps]; cbn [fst snd].
  - repeat split; [exact W | apply extends_refl | exact Hh | apply Anc_refl; exact Hh | exact C].
  - pose proof (C head (or_introl eq_refl)) as Ah.
    repeat split; [exact W | apply extends_refl | exact (Anc_right_lt _ _ _ Ah) | exact Ah |].
    intros x Hx. apply C. right. exact Hx.
  - destruct C as [Fp C].
    assert (N : forall x, In x (head :: srcs) -> Anc (s ++ [mkCommit ps true]) x (length s)).
    { intros x Hx. destruct (C x Hx) as (p & Hp & A).
      eapply Anc_step; [rewrite parents_of_snoc_last; exact Hp | apply Anc_mono; exact A]. }
    repeat split.
    + apply wf_snoc; assumption.
    + exists [mkCommit ps true]. reflexivity.
    + rewrite app_length. cbn. lia.
    + apply N. left. reflexivity.
    + intros x Hx. apply N. right. exact Hx.
Qed.

Lemma apply_merge_uptodate s h srcs :
  wf_store s -> (forall x, In x srcs -> Anc s x h) -> apply_merge s h srcs = (s, h).
Proof.
  intros W All. unfold apply_merge, git_merge.
  rewrite (filter_none (fun r => negb (anc s r h))); [reflexivity|].
  intros x Hx. apply negb_false_iff, anc_spec; [exact W|]. rewrite dedupe_first_In in Hx. exact (All x Hx).
Qed.

Lemma apply_merge_ff_general s h r srcs :
  wf_store s -> Anc s h r -> In r srcs -> (forall x, In x srcs -> Anc s x r) ->
  apply_merge s h srcs = (s, r).
Proof.
  intros W Ahr Hr All. destruct (anc s r h) eqn:Arh.
  - (* r already in HEAD: r = h *)
    apply anc_spec in Arh; [|exact W].
    replace r with h in * by (pose proof (Anc_le _ _ _ W Ahr); pose proof (Anc_le _ _ _ W Arh); lia).
    apply apply_merge_uptodate; assumption.
  - unfold apply_merge, git_merge. set (cand := filter _ _).
    assert (Hc : forall x, In x cand -> In x srcs).
    { intros x Hx. apply filter_In in Hx as [Hx _]. rewrite dedupe_first_In in Hx. exact Hx. }
    assert (Rc : In r cand).
    { apply filter_In. split; [rewrite dedupe_first_In; exact Hr | rewrite Arh; reflexivity]. }
    (* r dominates every other candidate and is dominated by none *)
    assert (Red : reduce s cand = [r]).
    { apply NoDup_single.
      - apply NoDup_filter, NoDup_filter, NoDup_rev, dedupe_NoDup.
      - apply filter_In. split; [exact Rc|]. apply negb_true_iff, not_true_is_false. intro Ex.
        apply existsb_exists in Ex as (y & Hy & Cy). apply andb_true_iff in Cy as [Ne Ay].
        apply negb_true_iff, Nat.eqb_neq in Ne. apply anc_spec in Ay; [|exact W].
        pose proof (Anc_le _ _ _ W Ay). pose proof (Anc_le _ _ _ W (All y (Hc y Hy))). lia.
      - intros x Hx. apply filter_In in Hx as [Hx Nd]. destruct (Nat.eq_dec x r) as [E|Ne]; [exact E|].
        assert (Ex : existsb (fun y => negb (Nat.eqb x y) && anc s x y) cand = true).
        { apply existsb_exists. exists r. split; [exact Rc|]. apply andb_true_iff. split.
          - apply negb_true_iff, Nat.eqb_neq. exact Ne.
          - apply anc_spec; [exact W | exact (All x (Hc x Hx))]. }
        rewrite Ex in Nd. discriminate Nd. }
    rewrite Red, (proj2 (anc_spec s W h r) Ahr). reflexivity.
Qed.

Lemma ref_acceptable_ff s remote n c old :
  wf_store s -> ref_acceptable s remote n c = true -> lookup remote n = Some old -> Anc s old c.
Proof.
  intros W H L. unfold ref_acceptable in H. rewrite L in H. apply anc_spec; assumption.
Qed.

Example git_example :
  let s0 := [mkCommit [] false; mkCommit [0] false; mkCommit [0] false] in
  git_merge s0 1 [2] = Merged [1; 2] /\ git_merge s0 1 [0] = UpToDate /\ git_merge s0 0 [2] = FastForward 2
  /\ git_merge s0 0 [1; 2] = Merged [1; 2] /\ anc (fst (apply_merge s0 1 [2])) 2 3 = true.
Proof. vm_compute. repeat split. Qed.
