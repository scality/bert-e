(* C01 at the level of a whole pull-request evaluation: for every trace of the steps of Model/Pipeline.v (every
   combination of answers), every commit graph, every number of targets and every strategy mix, the clone an
   evaluation ends with keeps the forward-port inclusion - by the fragment theorems (Flow, Gate, Queues), one
   step at a time. *)
From Coq Require Import List.
Require Import BertE.Model.Git BertE.Model.Flow BertE.Model.Gate BertE.Model.Pipeline BertE.Model.Job.
Require Import BertE.Proofs.GitProofs BertE.Proofs.FlowProofs BertE.Proofs.GateProofs BertE.Proofs.QueueProofs.
Import ListNotations.

Section Job.
  Variable later : name -> name -> Prop.

  Definition is_dest (n : name) : Prop := exists m, later n m \/ later m n.

  (* a step that leaves the destination branches alone (it may create, move, reset or delete anything else) *)
  Definition dest_stable (c c' : clone) : Prop :=
    wf_clone c' /\ extends (st c) (st c') /\ forall n, is_dest n -> lookup (refs c') n = lookup (refs c) n.

  Lemma dest_stable_refl c : wf_clone c -> dest_stable c c.
  Proof. intros W. split; [exact W|]. split; [apply extends_refl | reflexivity]. Qed.

  Lemma dest_stable_incl c c' : Incl later c -> dest_stable c c' -> Incl later c'.
  Proof.
    intros I (_ & E & U). exact (Incl_stable later c c' I E (fun n m L => U n (ex_intro _ m L))).
  Qed.

  Lemma dest_stable_upward c c' ts : dest_stable c c' -> upward_closed later c ts -> upward_closed later c' ts.
  Proof.
    intros (_ & _ & U) Up a b Ha L Lb. apply (Up a b Ha L).
    rewrite <- (U b) by (exists a; right; exact L). exact Lb.
  Qed.

  Record names_ok (d : jobdata) (c : clone) : Prop := {
    no_w_dest : forall w, In w (map fst (j_wds d)) -> ~ is_dest w;
    no_q_dest : forall n, In n (map tq (j_triples d)) \/ In n (map ti (j_triples d)) -> ~ is_dest n;
    aq_ok : aq_names_ok (j_triples d);
    targets_nodup : NoDup (map fst (j_pairs d));
    targets_apart : forall w, In w (map snd (j_pairs d)) -> ~ In w (map fst (j_pairs d));
    targets_closed : upward_closed later c (map fst (j_pairs d));
    targets_ordered : in_order later (map fst (j_pairs d)) }.

  Variable d : jobdata.
  Variable other : stage -> clone -> option clone.
  (* the steps that are not modelled leave the destination branches alone *)
  Hypothesis other_stable : forall s c c', wf_clone c -> other s c = Some c' -> dest_stable c c'.

  Lemma stage_keeps_incl s c c' :
    wf_clone c -> Incl later c -> names_ok d c -> stage_effect d other s c = Some c' ->
    wf_clone c' /\ Incl later c' /\ names_ok d c'.
  Proof.
    intros W I N H.
    assert (Stable : dest_stable c c' -> wf_clone c' /\ Incl later c' /\ names_ok d c').
    { intros S. split; [exact (proj1 S)|]. split; [exact (dest_stable_incl _ _ I S)|].
      destruct N. constructor; try assumption. exact (dest_stable_upward _ _ _ S targets_closed0). }
    destruct s; cbn [stage_effect] in H; try (apply Stable; exact (other_stable _ _ _ W H)).
    - (* update_integration_branches merges into w/ branches only *)
      apply Stable. destruct (run_ops_grows _ _ _ W H) as [(W' & E & _) U].
      split; [exact W'|]. split; [exact E|]. intros n Dn. apply U. intro Hin.
      exact (no_w_dest _ _ N n (update_ops_dsts _ _ _ _ Hin) Dn).
    - (* add_to_queue moves q/ branches only *)
      apply Stable. destruct (add_to_queue_spec _ _ _ _ W (aq_ok _ _ N) H) as ((W' & E & _) & U & _).
      split; [exact W'|]. split; [exact E|]. intros n Dn. apply U; intro Hin; apply (no_q_dest _ _ N n); tauto.
    - (* merge_integration_branches *)
      destruct (merge_integration_incl later _ _ _ _ W I (targets_nodup _ _ N) (targets_apart _ _ N)
                  (targets_closed _ _ N) (targets_ordered _ _ N) H) as (I' & G & U).
      split; [exact (proj1 G)|]. split; [exact I'|].
      destruct N. constructor; try assumption.
      (* the targets still exist afterwards (refs only grow) *)
      intros a b Ha L Lb. apply (targets_closed0 a b Ha L).
      destruct G as (_ & _ & _ & Nn). intro Hnone. apply Lb. exact (Nn b Hnone).
  Qed.

  (* C01 for one evaluation, whatever its steps answer *)
  Theorem job_keeps_inclusion : forall tr c c',
    wf_clone c -> Incl later c -> names_ok d c -> job_clone d other tr c = Some c' ->
    wf_clone c' /\ Incl later c'.
  Proof.
    induction tr as [|[s a] t IH]; intros c c' W I N H; cbn [job_clone] in H.
    - injection H as <-. split; assumption.
    - assert (Step : match stage_effect d other s c with Some c1 => job_clone d other t c1 | None => None end = Some c'
                     -> wf_clone c' /\ Incl later c').
      { destruct (stage_effect d other s c) as [c1|] eqn:E; [|discriminate].
        destruct (stage_keeps_incl _ _ _ W I N E) as (W1 & I1 & N1). exact (IH _ _ W1 I1 N1). }
      destruct a; try exact (Step H).
      (* a step that raised ends the evaluation *)
      injection H as <-. split; assumption.
  Qed.
End Job.

Definition ex_later (a b : name) : Prop := a = 0 /\ b = 1.
(* Non-vacuity: a two-target evaluation (update, then the direct merge).
   Names: 0 = development/4.3, 1 = development/5.1, 2 = the source branch, 3 = w/5.1/<source> *)
Definition ex_store : store := [mkCommit [] false; mkCommit [0] false; mkCommit [1] false; mkCommit [1] false].
Definition ex_clone : clone := mkClone ex_store [(0, 1); (1, 2); (2, 3); (3, 2)].
Definition ex_job : jobdata := mkJob 2 [(3, 1)] [(0, 2); (1, 3)] [] [Octopus] [Octopus] [].
Definition ex_trace : list (stage * ans) := [(SInSync, AB false); (SUpdate, AOk); (SPushW, AOk); (SMergeIntegration, AOk)].

Example ex_job_runs : exists c', job_clone ex_job (fun _ c => Some c) ex_trace ex_clone = Some c'.
Proof.
  (* the update merges 1 and 2 into 3 (commit 4); the direct merge fast-forwards 0 onto 2 and 1 onto 3 *)
  exists (mkClone (ex_store ++ [mkCommit [2; 3] true]) [(0, 3); (1, 4); (2, 3); (3, 4)]). reflexivity.
Qed.

Lemma ex_wf : wf_clone ex_clone.
Proof. apply wf_clone_b_spec. reflexivity. Qed.

Example ex_premises : Incl ex_later ex_clone /\ names_ok ex_later ex_job ex_clone.
Proof.
  split.
  - intros a b x y (-> & ->) La Lb. cbn in La, Lb. injection La as <-. injection Lb as <-.
    apply (proj1 (anc_spec ex_store (proj1 ex_wf) 1 2)). vm_compute. reflexivity.
  - constructor.
    + intros w [<-|[]] (m & [(E & _)|(_ & E)]); discriminate.
    + intros n [[]|[]].
    + split; [constructor|]. split; [constructor|]. split; intros ? [].
    + cbn. repeat constructor; cbn; intuition discriminate.
    + cbn. intros w [<-|[<-|[]]]; intuition discriminate.
    + intros a b Ha (-> & ->) _. cbn. tauto.
    + intros a b (-> & ->) _ _. exists [], [], []. reflexivity.
Qed.
