(* Proofs for C10 (Model/Notify.v against Spec/C10Spec.v, data from Generated/Facts_C10.v).
   An evaluation is split into what it decides to say ([plan]: a list of messages, computed from the oracle and
   the comments) and what saying it appends ([posts]); c10_eval_step_plan is the equation, and the theorems about
   evaluations are facts about [posts] put together along the branches of [plan].  Invariants of histories go
   through c10_run_trace_ind.  Everything is about no_comment = false (the server posts); with no_comment = true
   nothing is ever appended and nothing is claimed.  First come facts about the model (pending, find_comment,
   notify, posts, plan), then one part for each theorem of Properties/C10.v, which is the only file that imports
   this one. *)
From Coq Require Import List String Bool Arith ZArith Lia.
Require Import BertE.Base.Lists BertE.Generated.Facts_C10 BertE.Model.Notify BertE.Spec.C10Spec.
Import ListNotations.
Open Scope string_scope.
Open Scope list_scope.

Lemma match_rev_cons {A B} (f : A -> B) (d : B) a l :
  l <> [] -> match rev (a :: l) with p :: _ => f p | [] => d end = match rev l with p :: _ => f p | [] => d end.
Proof.
  intros Hl. cbn [rev]. destruct (rev l) eqn:R; [|reflexivity].
  destruct Hl. rewrite <- (rev_involutive l), R. reflexivity.
Qed.

(* command_entry kw and reply_of o kw both unfold to this lookup by key *)
Lemma find_fst_eqb {B} kw (l : list (string * B)) d :
  match find (fun e => String.eqb (fst e) kw) l with Some (_, d) => Some d | None => None end = Some d -> In (kw, d) l.
Proof.
  destruct (find (fun e => String.eqb (fst e) kw) l) as [[k d']|] eqn:F; [|discriminate].
  intros [= <-]. apply find_some in F as [Hin E]. apply String.eqb_eq in E. subst kw. exact Hin.
Qed.

Lemma c10_is_robot_matches : forall c, username_matches (Some Robot) c = is_robot c.
Proof. reflexivity. Qed.

Lemma c10_pending_snoc cs c : pending (cs ++ [c]) = if is_robot c then [] else c :: pending cs.
Proof. unfold pending. rewrite rev_unit. reflexivity. Qed.

Lemma c10_pending_app_robots cs app :
  Forall (fun c => is_robot c = true) app ->
  pending (cs ++ app) = match app with [] => pending cs | _ => [] end.
Proof.
  intros H. destruct app as [|a t]; [rewrite app_nil_r; reflexivity|].
  destruct (@exists_last _ (a :: t)) as (l & c & E); [discriminate|]. rewrite E in *.
  apply Forall_app in H as [_ H]. inversion H as [|x y Hc _]. rewrite app_assoc, c10_pending_snoc, Hc. reflexivity.
Qed.

Lemma c10_pending_from_prefix : forall l, exists rest, l = pending_from l ++ rest.
Proof.
  induction l as [|c l [rest IH]]; [exists []; reflexivity|].
  cbn [pending_from]. destruct (is_robot c); [exists (c :: l); reflexivity|].
  exists rest. cbn [app]. rewrite <- IH. reflexivity.
Qed.

Lemma c10_pending_incl cs c : In c (pending cs) -> In c cs.
Proof.
  intros H. destruct (c10_pending_from_prefix (rev cs)) as [rest Hr].
  apply in_rev. rewrite Hr. apply in_or_app. left. exact H.
Qed.

Lemma c10_pending_not_robot : forall l c, In c (pending_from l) -> is_robot c = false.
Proof.
  induction l as [|a l IH]; intros c H; [destruct H|].
  cbn [pending_from] in H. destruct (is_robot a) eqn:Ha; [destruct H|].
  destruct H as [H|H]; [subst; exact Ha|apply IH; exact H].
Qed.

Lemma c10_pending_nodup cs : NoDup (map c_id cs) -> NoDup (map c_id (pending cs)).
Proof.
  intros H. apply NoDup_rev in H. rewrite <- map_rev in H.
  destruct (c10_pending_from_prefix (rev cs)) as [rest Hr]. rewrite Hr, map_app in H.
  apply NoDup_app_iff in H. apply H.
Qed.

Lemma c10_pending_filter (f : comment -> bool) cs :
  (forall c, is_robot c = true -> f c = true) -> pending (filter f cs) = filter f (pending cs).
Proof.
  intros Hf. unfold pending. rewrite <- filter_rev. induction (rev cs) as [|c l IH]; [reflexivity|].
  cbn [filter pending_from]. destruct (is_robot c) eqn:Hr.
  - rewrite (Hf c Hr). cbn [pending_from]. rewrite Hr. reflexivity.
  - destruct (f c) eqn:Hc; cbn [pending_from filter]; rewrite ?Hr, ?Hc, IH; reflexivity.
Qed.

Lemma c10_pending_nonempty_last cs :
  pending cs <> [] -> exists p t, rev cs = p :: t /\ is_robot p = false.
Proof.
  unfold pending. destruct (rev cs) as [|p t]; [intros []; reflexivity|]. intros H.
  exists p, t. split; [reflexivity|]. cbn [pending_from] in H. destruct (is_robot p); [destruct H|]; reflexivity.
Qed.


Lemma c10_fc_scan_found st sw l x :
  fc_scan st (Some Robot) sw l = Some x -> In x l /\ is_robot x = true.
Proof.
  induction l as [|a l IH]; [discriminate|]. cbn [fc_scan]. rewrite c10_is_robot_matches. intros H.
  assert (Hl : fc_scan st (Some Robot) sw l = Some x -> In x (a :: l) /\ is_robot x = true).
  { intros Hx. split; [right|]; apply IH, Hx. }
  destruct (is_robot a) eqn:Ha; cbn [negb] in H; [|exact (Hl H)].
  assert (Ha' : Some a = Some x -> In x (a :: l) /\ is_robot x = true).
  { intros [= <-]. split; [left; reflexivity|exact Ha]. }
  destruct sw as [b|]; [|exact (Ha' H)].
  destruct (body_eqb (c_body a) b); [exact (Ha' H)|]. destruct st; [discriminate|exact (Hl H)].
Qed.

Lemma c10_find_comment_found cs sw p x :
  find_comment cs (Some Robot) sw p = FcFound x -> In x cs /\ is_robot x = true.
Proof.
  assert (G : forall st l, incl l (rev cs) ->
              of_option (fc_scan st (Some Robot) sw l) = FcFound x -> In x cs /\ is_robot x = true).
  { intros st l Hl E. destruct (fc_scan st (Some Robot) sw l) as [y|] eqn:S; [|discriminate]. injection E as ->.
    apply c10_fc_scan_found in S as [S1 S2]. split; [apply in_rev, Hl, S1|exact S2]. }
  unfold find_comment. destruct p as [z|]; [destruct (Z.eqb z (-1)); [|destruct (Z.ltb z 0); [discriminate|]]|];
    apply G; try apply incl_refl.
  intros y. apply In_firstn.
Qed.

(* the newest comment is the robot's and carries the text looked for: under a truthy policy the search does not
   come back empty (it finds it, or the policy is a negative number other than -1 and islice raises) *)
Lemma c10_find_newest cs q t b p :
  rev cs = q :: t -> is_robot q = true -> body_eqb (c_body q) b = true -> truthy p = true ->
  find_comment cs (Some Robot) (Some b) p <> FcNone.
Proof.
  intros R Hq Hb T. unfold find_comment. rewrite R. destruct p as [z|]; [|discriminate].
  assert (Hhit : forall st l, of_option (fc_scan st (Some Robot) (Some b) (q :: l)) <> FcNone).
  { intros st l. cbn [fc_scan]. rewrite c10_is_robot_matches, Hq, Hb. discriminate. }
  destruct (Z.eqb z (-1)); [apply Hhit|]. destruct (Z.ltb z 0) eqn:L; [discriminate|].
  destruct (Z.to_nat z) as [|k] eqn:E; [|apply Hhit].
  apply Z.ltb_ge in L. apply negb_true_iff, Z.eqb_neq in T. lia.
Qed.

Lemma c10_fc_scan_any st l : fc_scan st (Some Robot) None l = find is_robot l.
Proof.
  induction l as [|a l IH]; [reflexivity|]. cbn [fc_scan find]. rewrite c10_is_robot_matches.
  destruct (is_robot a); [reflexivity|exact IH].
Qed.

Lemma c10_notify_eq cs n m :
  notify false cs n m =
  match class_policy (m_cls m) with
  | None => NError
  | Some p =>
    if truthy p then
      match find_comment cs (Some Robot) (Some (BMsg m)) p with
      | FcFound _ => NQuiet
      | FcNone => NPosted (mk_comment n Robot (BMsg m))
      | FcValueError => NError
      end
    else NPosted (mk_comment n Robot (BMsg m))
  end.
Proof.
  unfold notify, send_comment. destruct (class_policy (m_cls m)) as [p|]; [|reflexivity]. cbn [negb].
  destruct (truthy p); [destruct (find_comment cs (Some Robot) (Some (BMsg m)) p)|]; reflexivity.
Qed.

Lemma c10_notify_posted cs n m (c : comment) :
  notify false cs n m = NPosted c ->
  c = mk_comment n Robot (BMsg m) /\
  exists p, class_policy (m_cls m) = Some p /\
            (truthy p = true -> find_comment cs (Some Robot) (Some (BMsg m)) p = FcNone).
Proof.
  rewrite c10_notify_eq. destruct (class_policy (m_cls m)) as [p|]; [|discriminate].
  destruct (truthy p) eqn:T.
  - destruct (find_comment cs (Some Robot) (Some (BMsg m)) p) eqn:F; try discriminate.
    intros [= <-]. split; [reflexivity|]. exists p. split; [reflexivity|]. intros _. exact F.
  - intros [= <-]. split; [reflexivity|]. exists p. split; [reflexivity|]. rewrite T. discriminate.
Qed.

Lemma c10_notify_quiet cs n m :
  notify false cs n m = NQuiet ->
  exists p x, class_policy (m_cls m) = Some p /\ truthy p = true /\
              find_comment cs (Some Robot) (Some (BMsg m)) p = FcFound x.
Proof.
  rewrite c10_notify_eq. destruct (class_policy (m_cls m)) as [p|]; [|discriminate].
  destruct (truthy p) eqn:T; [|discriminate].
  destruct (find_comment cs (Some Robot) (Some (BMsg m)) p) as [x| |] eqn:F; try discriminate.
  intros _. exists p, x. repeat split; assumption.
Qed.

(* the robot's comments all carry its name, so a message is only ever suppressed on a pull request the robot
   has commented *)
Lemma c10_notify_quiet_seen cs n m : notify false cs n m = NQuiet -> existsb is_robot cs = true.
Proof.
  intros H. apply c10_notify_quiet in H as (p & x & _ & _ & F). apply c10_find_comment_found in F as [Hin Hx].
  apply existsb_exists. exists x. split; assumption.
Qed.

(* notify looks at the next id only to build the comment *)
Lemma c10_notify_quiet_next cs n n' m : notify false cs n m = NQuiet -> notify false cs n' m = NQuiet.
Proof.
  intros H. apply c10_notify_quiet in H as (p & x & P & T & F). rewrite c10_notify_eq, P, T, F. reflexivity.
Qed.

(* C10_no_repeat, one post: a message that is posted right after an equal comment of the robot belongs to a
   class that _send_comment never de-duplicates *)
Lemma c10_notify_no_repeat cs n m c :
  notify false cs n m = NPosted c -> repeats cs c = true -> always_post (m_cls m) = true.
Proof.
  intros H Hrep. apply c10_notify_posted in H as (-> & p & P & Hfind).
  unfold always_post. rewrite P. destruct (truthy p) eqn:T; [|reflexivity]. exfalso.
  unfold repeats in Hrep. destruct (rev cs) as [|q t] eqn:R; [discriminate|].
  apply andb_prop in Hrep as [Hq Hb]. apply andb_prop in Hq as [Hq _].
  exact (c10_find_newest cs q t _ p R Hq Hb T (Hfind eq_refl)).
Qed.

Lemma c10_msg_eqb_refl m : msg_eqb m m = true.
Proof. unfold msg_eqb. rewrite !String.eqb_refl, Nat.eqb_refl. reflexivity. Qed.

Lemma c10_notify_after_post cs n n' m c :
  notify false cs n m = NPosted c -> always_post (m_cls m) = false ->
  notify false (cs ++ [c]) n' m <> NError -> notify false (cs ++ [c]) n' m = NQuiet.
Proof.
  intros H Ha. apply c10_notify_posted in H as (-> & p & P & _). unfold always_post in Ha. rewrite P in Ha.
  apply negb_false_iff in Ha. rewrite c10_notify_eq, P, Ha.
  pose proof (c10_find_newest (cs ++ [mk_comment n Robot (BMsg m)]) _ (rev cs) (BMsg m) p
                (rev_unit _ _) eq_refl (c10_msg_eqb_refl m) Ha) as Hf.
  destruct (find_comment _ (Some Robot) (Some (BMsg m)) p); [reflexivity|destruct Hf; reflexivity|intros []; reflexivity].
Qed.

Lemma c10_certain_posted cs n m :
  reply_certain (m_cls m) = true -> pending cs <> [] -> exists c, notify false cs n m = NPosted c.
Proof.
  intros Hc Hp. rewrite c10_notify_eq. unfold reply_certain in Hc.
  destruct (class_policy (m_cls m)) as [[z|]|]; [|eexists; reflexivity|discriminate].
  apply orb_prop in Hc as [Hc|Hc]; apply Z.eqb_eq in Hc; subst z; [eexists; reflexivity|].
  destruct (c10_pending_nonempty_last cs Hp) as (q & t & R & Hq).
  unfold find_comment. rewrite R. cbn. change (Pos.to_nat 1) with 1. cbn [firstn fc_scan].
  rewrite c10_is_robot_matches, Hq. eexists. reflexivity.
Qed.


(* do_notify_all without the bookkeeping of [run]: the comments appended, from the comment list and the next id *)
Fixpoint posts (cs : list comment) (n : nat) (ms : list msg) : option (list comment) :=
  match ms with
  | [] => Some []
  | m :: t => match notify false cs n m with
              | NPosted c => option_map (cons c) (posts (cs ++ [c]) (S n) t)
              | NQuiet => posts cs n t
              | NError => None
              end
  end.

Lemma c10_do_notify_all_posts ms : forall r (ex : list nat),
  match do_notify_all false r ms with Some r' => Some (ex, r_app r') | None => None end
  = option_map (fun a => (ex, r_app r ++ a)) (posts (r_cs r) (r_next r) ms).
Proof.
  induction ms as [|m t IH]; intros r ex; cbn [do_notify_all posts option_map]; [rewrite app_nil_r; reflexivity|].
  unfold do_notify. destruct (notify false (r_cs r) (r_next r) m) as [c| |]; [|apply IH|reflexivity].
  rewrite IH. cbn [r_cs r_next r_app]. destruct (posts (r_cs r ++ [c]) (S (r_next r)) t) as [a|]; [|reflexivity].
  cbn [option_map]. rewrite <- app_assoc. reflexivity.
Qed.

Lemma c10_do_notify_posts r (ex : list nat) m :
  match do_notify false r m with Some r' => Some (ex, r_app r') | None => None end
  = option_map (fun a => (ex, r_app r ++ a)) (posts (r_cs r) (r_next r) [m]).
Proof. rewrite <- c10_do_notify_all_posts. cbn [do_notify_all]. destruct (do_notify false r m); reflexivity. Qed.

Lemma c10_posts_cons cs n m t a :
  posts cs n (m :: t) = Some a ->
  (notify false cs n m = NQuiet /\ posts cs n t = Some a) \/
  (exists c a', notify false cs n m = NPosted c /\ posts (cs ++ [c]) (S n) t = Some a' /\ a = c :: a').
Proof.
  cbn [posts]. destruct (notify false cs n m) as [c| |]; [|left; split; [reflexivity|assumption]|discriminate].
  destruct (posts (cs ++ [c]) (S n) t) as [a'|] eqn:P; [|discriminate]. intros [= <-]. right. exists c, a'. auto.
Qed.

Lemma c10_posts_shape ms : forall cs n a,
  posts cs n ms = Some a -> Forall (fun c => is_robot c = true) a /\ map c_id a = seq n (List.length a).
Proof.
  induction ms as [|m t IH]; intros cs n a H; [injection H as <-; split; [constructor|reflexivity]|].
  apply c10_posts_cons in H as [[_ H]|(c & a' & N & H & ->)]; [exact (IH _ _ _ H)|].
  apply c10_notify_posted in N as [-> _]. apply IH in H as [H1 H2].
  split; [constructor; [reflexivity|exact H1]|]. cbn [map List.length seq c_id]. rewrite H2. reflexivity.
Qed.


Lemma c10_scan_nil : forall o ex0, scan_commands o [] ex0 = ScanDone ex0.
Proof. reflexivity. Qed.

(* What an evaluation executes and what it says, before anything is posted.  The greeting comes first when the
   robot has not commented yet; the command loop then sees no pending comment, because the greeting is the
   newest one.  [rest] stands for o_rest, which only the last branch reads. *)
Definition plan (o : oracle) (rest : list msg) (cs : list comment) : list nat * list msg :=
  match o_early o with
  | Some None => ([], [])
  | Some (Some m) => ([], [m])
  | None =>
    let seen := existsb is_robot cs in
    let g := if seen then [] else [init_message] in
    match o_opt o with
    | Some m => ([], g ++ [m])
    | None => match scan_commands o (if seen then pending cs else []) [] with
              | ScanRaise ex m => (ex, g ++ [m])
              | ScanDone ex => (ex, g ++ rest)
              end
    end
  end.

(* send_greetings' test: the robot has commented before *)
Lemma c10_greet_eq r :
  greet false r = if existsb is_robot (r_cs r) then Some r else do_notify false r init_message.
Proof.
  unfold greet, find_comment. rewrite c10_fc_scan_any.
  destruct (find is_robot (rev (r_cs r))) as [x|] eqn:F; cbn [of_option].
  - apply find_some in F as [Hin Hx]. apply in_rev in Hin.
    rewrite (proj2 (existsb_exists _ _) (ex_intro _ x (conj Hin Hx))). reflexivity.
  - rewrite (proj2 (existsb_false_iff _ _) (fun x Hin => find_none _ _ F x (proj1 (in_rev _ _) Hin))). reflexivity.
Qed.

Theorem c10_eval_step_plan o cs n :
  eval_step false o cs n = let (ex, ms) := plan o (o_rest o) cs in option_map (pair ex) (posts cs n ms).
Proof.
  unfold eval_step, plan. destruct (o_early o) as [[m|]|]; [apply c10_do_notify_posts|reflexivity|].
  rewrite c10_greet_eq. cbn [r_cs]. destruct (existsb is_robot cs) eqn:Seen.
  - cbn [r_cs]. destruct (o_opt o) as [m|]; [apply c10_do_notify_posts|].
    destruct (scan_commands o (pending cs) []) as [ex|ex m]; [apply c10_do_notify_all_posts|apply c10_do_notify_posts].
  - (* the greeting is posted, or the evaluation fails; the case analysis on its notification below also
       rewrites Hrhs, which is then the right-hand side of each case *)
    unfold do_notify at 1. cbn [r_cs r_next r_app app].
    assert (Hrhs : forall (ex : list nat) ms, (let (ex', ms') := (ex, init_message :: ms) in option_map (pair ex') (posts cs n ms'))
                   = match notify false cs n init_message with
                     | NPosted c => option_map (fun a => (ex, c :: a)) (posts (cs ++ [c]) (S n) ms)
                     | NQuiet => option_map (pair ex) (posts cs n ms)
                     | NError => None
                     end).
    { intros ex ms. cbn [posts]. destruct (notify false cs n init_message) as [c| |]; try reflexivity.
      destruct (posts (cs ++ [c]) (S n) ms); reflexivity. }
    destruct (notify false cs n init_message) as [c| |] eqn:N.
    + pose proof (c10_notify_posted _ _ _ _ N) as [Hc _].
      assert (Hp : pending (cs ++ [c]) = []) by (rewrite c10_pending_snoc, Hc; reflexivity).
      cbn [r_cs]. rewrite Hp. cbn [scan_commands].
      destruct (o_opt o) as [m|]; rewrite Hrhs; [apply c10_do_notify_posts|apply c10_do_notify_all_posts].
    + apply c10_notify_quiet_seen in N. rewrite Seen in N. discriminate.
    + destruct (o_opt o); cbn [scan_commands]; rewrite Hrhs; reflexivity.
Qed.

Lemma c10_eval_step_inv o cs n ex app :
  eval_step false o cs n = Some (ex, app) ->
  exists ms, plan o (o_rest o) cs = (ex, ms) /\ posts cs n ms = Some app.
Proof.
  rewrite c10_eval_step_plan. destruct (plan o (o_rest o) cs) as [ex' ms].
  destruct (posts cs n ms) as [a|] eqn:Ps; [|discriminate]. intros [= <- <-]. exists ms. split; [reflexivity|exact Ps].
Qed.

Definition executed_of (s : scan_result) : list nat :=
  match s with ScanDone ex => ex | ScanRaise ex _ => ex end.

(* only the command loop executes anything, and it runs on a pull request the robot has commented *)
Lemma c10_plan_cases o rest cs ex ms :
  plan o rest cs = (ex, ms) ->
  ex = [] \/
  existsb is_robot cs = true /\
  match scan_commands o (pending cs) [] with
  | ScanRaise ex' m => ex' = ex /\ ms = [m]
  | ScanDone ex' => ex' = ex /\ ms = rest
  end.
Proof.
  unfold plan. destruct (o_early o) as [[m|]|]; [intros [= <- _]; left; reflexivity..|].
  destruct (o_opt o) as [m|]; [intros [= <- _]; left; reflexivity|].
  destruct (existsb is_robot cs); [|intros [= <- _]; left; reflexivity].
  intros H. right. split; [reflexivity|].
  destruct (scan_commands o (pending cs) []); injection H as <- <-; split; reflexivity.
Qed.

Lemma c10_scan_executed o l : forall ex0,
  exists ex', executed_of (scan_commands o l ex0) = ex0 ++ ex' /\ incl ex' (map c_id l) /\
              (NoDup (map c_id l) -> NoDup ex').
Proof.
  induction l as [|c l IH]; intros ex0.
  { exists []. cbn. rewrite app_nil_r. repeat split; [apply incl_nil_l|constructor]. }
  assert (Hskip : exists ex', executed_of (scan_commands o l ex0) = ex0 ++ ex' /\
                              incl ex' (map c_id (c :: l)) /\ (NoDup (map c_id (c :: l)) -> NoDup ex')).
  { destruct (IH ex0) as (ex' & E1 & E2 & E3). exists ex'. repeat split; [exact E1|apply incl_tl, E2|].
    intros Hn. apply E3. inversion Hn. assumption. }
  cbn [scan_commands]. destruct (c_author c) as [|u]; [exact Hskip|].
  destruct (c_body c) as [m|[t|kw]]; [exact Hskip..|].
  destruct (is_command kw); [|destruct (is_option kw); [exact Hskip|]].
  - destruct (reply_of o kw) as [m|].
    + exists [c_id c]. repeat split; [apply incl_cons; [left; reflexivity|apply incl_nil_l]|].
      intros _. constructor; [intros []|constructor].
    + destruct (IH (ex0 ++ [c_id c])) as (ex' & E1 & E2 & E3). exists (c_id c :: ex').
      rewrite E1, <- app_assoc. repeat split; [apply incl_cons; [left; reflexivity|apply incl_tl, E2]|].
      cbn [map]. intros Hn. apply NoDup_cons_iff in Hn as [Hc Hn]. constructor; [|exact (E3 Hn)].
      intros Hin. exact (Hc (E2 _ Hin)).
  - exists []. cbn. rewrite app_nil_r. repeat split; [apply incl_nil_l|constructor].
Qed.

Lemma c10_eval_shape o cs next ex app :
  eval_step false o cs next = Some (ex, app) ->
  incl ex (map c_id (pending cs)) /\ (NoDup (map c_id cs) -> NoDup ex) /\
  Forall (fun c => is_robot c = true) app /\ map c_id app = seq next (List.length app).
Proof.
  intros H. apply c10_eval_step_inv in H as (ms & P & Ps).
  rewrite <- and_assoc. split; [|exact (c10_posts_shape _ _ _ _ Ps)].
  apply c10_plan_cases in P as [->|[_ P]]; [split; [apply incl_nil_l|constructor]|].
  destruct (c10_scan_executed o (pending cs) []) as (ex0 & E1 & E2 & E3).
  assert (ex0 = ex) as -> by (destruct (scan_commands o (pending cs) []); destruct P as [<- _]; exact (eq_sym E1)).
  split; [exact E2|]. intros Hn. apply E3, c10_pending_nodup, Hn.
Qed.

(* C10_no_repeat *)

Lemma c10_scan_raise_nonempty o l ex0 ex m : scan_commands o l ex0 = ScanRaise ex m -> l <> [].
Proof. destruct l; discriminate. Qed.

Lemma c10_repeats_unseen cs c : existsb is_robot cs = false -> repeats cs c = false.
Proof.
  intros H. unfold repeats. destruct (rev cs) as [|q t] eqn:R; [reflexivity|].
  unfold same_robot_message. rewrite (proj1 (existsb_false_iff _ _) H q); [reflexivity|].
  apply in_rev. rewrite R. left. reflexivity.
Qed.

Lemma c10_repeats_pending cs c : pending cs <> [] -> repeats cs c = false.
Proof.
  intros H. destruct (c10_pending_nonempty_last cs H) as (p & t & R & Hp).
  unfold repeats. rewrite R. unfold same_robot_message. rewrite Hp. reflexivity.
Qed.

Lemma c10_posts_no_repeat ms : forall cs n a,
  posts cs n ms = Some a -> some_post_repeats cs a = true ->
  exists m, In m ms /\ always_post (m_cls m) = true.
Proof.
  induction ms as [|m t IH]; intros cs n a H Hrep; [injection H as <-; discriminate|].
  apply c10_posts_cons in H as [[_ H]|(c & a' & N & H & ->)].
  - destruct (IH _ _ _ H Hrep) as (m' & Hin & Ha). exists m'. split; [right; exact Hin|exact Ha].
  - cbn [some_post_repeats] in Hrep. apply orb_prop in Hrep as [Hrep|Hrep].
    + exists m. split; [left; reflexivity|exact (c10_notify_no_repeat _ _ _ _ N Hrep)].
    + destruct (IH _ _ _ H Hrep) as (m' & Hin & Ha). exists m'. split; [right; exact Hin|exact Ha].
Qed.

(* where no post can repeat the newest comment, the first message is not to blame *)
Lemma c10_posts_no_repeat_tl cs n m t a :
  (forall c, repeats cs c = false) ->
  posts cs n (m :: t) = Some a -> some_post_repeats cs a = true ->
  exists m', In m' t /\ always_post (m_cls m') = true.
Proof.
  intros Hcs H Hrep. apply c10_posts_cons in H as [[_ H]|(c & a' & _ & H & ->)].
  - exact (c10_posts_no_repeat _ _ _ _ H Hrep).
  - cbn [some_post_repeats] in Hrep. rewrite Hcs in Hrep. exact (c10_posts_no_repeat _ _ _ _ H Hrep).
Qed.

(* Nothing an evaluation posts repeats the comment just before it, except a message of a class that
   _send_comment never de-duplicates, said by the non-command part of the evaluation. *)
Theorem c10_no_repeat_eval : forall o cs next ex app,
  eval_step false o cs next = Some (ex, app) ->
  some_post_repeats cs app = true ->
  exists m, always_post (m_cls m) = true /\
            (In m (o_rest o) \/ o_opt o = Some m \/ o_early o = Some (Some m)).
Proof.
  intros o cs next ex app H Hrep. apply c10_eval_step_inv in H as (ms & P & Ps).
  unfold plan in P. destruct (o_early o) as [[e|]|].
  - injection P as <- <-. destruct (c10_posts_no_repeat _ _ _ _ Ps Hrep) as (m & [->|[]] & Ha). exists m. auto.
  - injection P as <- <-. destruct (c10_posts_no_repeat _ _ _ _ Ps Hrep) as (m & [] & _).
  - destruct (existsb is_robot cs) eqn:Seen.
    + destruct (o_opt o) as [p|].
      * injection P as <- <-. destruct (c10_posts_no_repeat _ _ _ _ Ps Hrep) as (m & [->|[]] & Ha). exists m. auto.
      * destruct (scan_commands o (pending cs) []) as [ex0|ex0 r] eqn:S; injection P as <- <-.
        -- destruct (c10_posts_no_repeat _ _ _ _ Ps Hrep) as (m & Hin & Ha). exists m. auto.
        -- (* the reply to a command comes right after the command *)
           apply c10_scan_raise_nonempty in S.
           destruct (c10_posts_no_repeat_tl _ _ _ _ _ (fun c => c10_repeats_pending cs c S) Ps Hrep) as (m & [] & _).
    + (* the greeting is the robot's first comment *)
      assert (Hcs := fun c => c10_repeats_unseen cs c Seen). destruct (o_opt o) as [p|]; injection P as <- <-.
      * destruct (c10_posts_no_repeat_tl _ _ _ _ _ Hcs Ps Hrep) as (m & [->|[]] & Ha). exists m. auto.
      * destruct (c10_posts_no_repeat_tl _ _ _ _ _ Hcs Ps Hrep) as (m & Hin & Ha). exists m. auto.
Qed.

(* an invariant of histories (which may mention what is still to come) is shown for the three events *)
Lemma c10_run_trace_ind (P : list event -> world -> Prop) :
  (forall u x tr w, P (EvComment u x :: tr) w ->
     P tr (mk_world (w_cs w ++ [mk_comment (w_next w) (User u) (BUser x)]) (S (w_next w)) (w_log w) (w_evals w))) ->
  (forall i tr w, P (EvDelete i :: tr) w ->
     P tr (mk_world (filter (keep_on_delete i) (w_cs w)) (w_next w) (w_log w) (w_evals w))) ->
  (forall o tr w ex app, P (EvEval o :: tr) w -> eval_step false o (w_cs w) (w_next w) = Some (ex, app) ->
     P tr (mk_world (w_cs w ++ app) (w_next w + List.length app) (w_log w ++ ex) (w_evals w ++ [(ex, app)]))) ->
  forall tr w w', P tr w -> run_trace false w tr = Some w' -> P [] w'.
Proof.
  intros Hc Hd He. induction tr as [|e tr IH]; intros w w' Hw H; cbn [run_trace] in H.
  - injection H as <-. exact Hw.
  - destruct (step false w e) as [w1|] eqn:S; [|discriminate]. apply (IH w1 w'); [|exact H].
    destruct e as [u x|i|o]; cbn [step] in S.
    + injection S as <-. apply Hc, Hw.
    + injection S as <-. apply Hd, Hw.
    + destruct (eval_step false o (w_cs w) (w_next w)) as [[ex app]|] eqn:E; [|discriminate].
      injection S as <-. exact (He _ _ _ _ _ Hw E).
Qed.

(* C10_facts, C10_no_repeat_classes *)

(* the classes that nothing in pr_utils keeps from being posted twice in a row: exactly these two *)
Lemma c10_unguarded_classes : unguarded_repeatable = ["IntegrationDataCreated"; "PartialMerge"].
Proof. vm_compute. reflexivity. Qed.

(* the message of the command loop for an unknown keyword is a de-duplicated template message *)
Lemma c10_unknown_command_class : class_policy "UnknownCommand" = Some (Some (-1)%Z).
Proof. vm_compute. reflexivity. Qed.

Lemma c10_said_in o m :
  In m (o_rest o) \/ o_opt o = Some m \/ o_early o = Some (Some m) ->
  In m (o_rest o ++ match o_opt o with Some m => [m] | None => [] end
                 ++ match o_early o with Some (Some m) => [m] | _ => [] end).
Proof.
  intros [H|[H|H]]; rewrite ?H, !in_app_iff; [left; exact H|right; left; left; reflexivity|right; right; left; reflexivity].
Qed.

(* C10_no_adjacent_repeat *)

Lemma c10_tir_snoc : forall cs c, twice_in_a_row (cs ++ [c]) = twice_in_a_row cs || repeats cs c.
Proof.
  induction cs as [|a cs IH]; intros c; [reflexivity|].
  destruct cs as [|b t]; [cbn; apply orb_false_r|].
  change (twice_in_a_row ((a :: b :: t) ++ [c])) with (same_robot_message a b || twice_in_a_row ((b :: t) ++ [c])).
  change (twice_in_a_row (a :: b :: t)) with (same_robot_message a b || twice_in_a_row (b :: t)).
  unfold repeats at 1. rewrite IH, match_rev_cons, orb_assoc; [reflexivity|discriminate].
Qed.

Lemma c10_tir_app : forall app cs, twice_in_a_row (cs ++ app) = twice_in_a_row cs || some_post_repeats cs app.
Proof.
  induction app as [|c app IH]; intros cs.
  - rewrite app_nil_r. symmetry. apply orb_false_r.
  - change (cs ++ c :: app) with (cs ++ [c] ++ app). rewrite app_assoc, IH, c10_tir_snoc.
    cbn [some_post_repeats]. rewrite orb_assoc. reflexivity.
Qed.

(* a class that _send_comment de-duplicates *)
Definition quiet_class (m : msg) : bool := negb (always_post (m_cls m)).

Definition says_only_quiet (o : oracle) : bool :=
  forallb quiet_class (o_rest o ++ match o_opt o with Some m => [m] | None => [] end
                                ++ match o_early o with Some (Some m) => [m] | _ => [] end).

Fixpoint plain_history (tr : list event) : bool :=
  match tr with
  | [] => true
  | EvEval o :: t => says_only_quiet o && plain_history t
  | EvDelete _ :: _ => false
  | EvComment _ _ :: t => plain_history t
  end.

Theorem c10_no_adjacent_repeat : forall tr w w',
  plain_history tr = true -> twice_in_a_row (w_cs w) = false ->
  run_trace false w tr = Some w' -> twice_in_a_row (w_cs w') = false.
Proof.
  intros tr w w' Hp Hw H.
  refine (proj2 (c10_run_trace_ind (fun tr w => plain_history tr = true /\ twice_in_a_row (w_cs w) = false) _ _ _
                   tr w w' (conj Hp Hw) H)); clear; cbn [plain_history w_cs].
  - intros u x tr w [Hp Hw]. split; [exact Hp|]. rewrite c10_tir_snoc, Hw.
    unfold repeats, same_robot_message. destruct (rev (w_cs w)); [reflexivity|]. cbn. rewrite andb_false_r. reflexivity.
  - intros i tr w [Hp _]. discriminate.
  - intros o tr w ex app [Hp Hw] E. apply andb_prop in Hp as [Ho Hp]. split; [exact Hp|].
    rewrite c10_tir_app, Hw. destruct (some_post_repeats (w_cs w) app) eqn:R; [|reflexivity].
    destruct (c10_no_repeat_eval o _ _ _ _ E R) as (m & Ha & Hsrc).
    unfold says_only_quiet in Ho. rewrite forallb_forall in Ho. specialize (Ho _ (c10_said_in _ _ Hsrc)).
    unfold quiet_class in Ho. rewrite Ha in Ho. discriminate.
Qed.

(* C10_no_repeat_strict *)

(* classes with dont_repeat_if_in_history = -1: compared with the robot's most recent comment, user comments
   skipped *)
Definition strict_msg (m : msg) : bool :=
  match class_policy (m_cls m) with Some (Some z) => Z.eqb z (-1) | _ => false end.

Definition strictb (c : comment) : bool :=
  match c_body c with BMsg m => strict_msg m | BUser _ => false end.

(* in a list of robot comments: no comment of a strict class equals the one before it *)
Fixpoint quiet_ok (rs : list comment) : bool :=
  match rs with
  | a :: ((b :: _) as t) => negb (strictb b && body_eqb (c_body a) (c_body b)) && quiet_ok t
  | _ => true
  end.

Definition robots (cs : list comment) : list comment := filter is_robot cs.

Definition rep_strict (rs : list comment) (c : comment) : bool :=
  match rev rs with
  | a :: _ => strictb c && body_eqb (c_body a) (c_body c)
  | [] => false
  end.

Lemma c10_qo_snoc : forall rs c, quiet_ok (rs ++ [c]) = quiet_ok rs && negb (rep_strict rs c).
Proof.
  induction rs as [|a rs IH]; intros c; [reflexivity|].
  destruct rs as [|b t]; [cbn; apply andb_true_r|].
  change (quiet_ok ((a :: b :: t) ++ [c]))
    with (negb (strictb b && body_eqb (c_body a) (c_body b)) && quiet_ok ((b :: t) ++ [c])).
  change (quiet_ok (a :: b :: t)) with (negb (strictb b && body_eqb (c_body a) (c_body b)) && quiet_ok (b :: t)).
  unfold rep_strict at 1. rewrite IH, match_rev_cons, andb_assoc; [reflexivity|discriminate].
Qed.

Lemma c10_robots_delete i cs : robots (filter (keep_on_delete i) cs) = robots cs.
Proof.
  unfold robots. rewrite filter_filter. apply filter_ext. intros c. unfold keep_on_delete.
  destruct (is_robot c); [reflexivity|apply andb_false_r].
Qed.

Lemma c10_fc_scan_strict_none b l :
  fc_scan true (Some Robot) (Some b) l = None ->
  match filter is_robot l with q :: _ => body_eqb (c_body q) b = false | [] => True end.
Proof.
  induction l as [|a l IH]; intros H; [exact I|].
  cbn [fc_scan] in H. rewrite c10_is_robot_matches in H. cbn [filter]. destruct (is_robot a); [|exact (IH H)].
  cbn [negb] in H. destruct (body_eqb (c_body a) b); [discriminate|reflexivity].
Qed.

Lemma c10_notify_strict cs n m c :
  notify false cs n m = NPosted c -> rep_strict (robots cs) c = false.
Proof.
  intros H. apply c10_notify_posted in H as (-> & p & P & Hfind).
  unfold rep_strict, robots. rewrite <- filter_rev. destruct (filter is_robot (rev cs)) as [|q t] eqn:R; [reflexivity|].
  cbn [strictb c_body]. unfold strict_msg. rewrite P. destruct p as [z|]; [|reflexivity].
  destruct (Z.eqb z (-1)) eqn:E; [|reflexivity]. apply Z.eqb_eq in E. subst z. specialize (Hfind eq_refl).
  unfold find_comment in Hfind. cbn [Z.eqb Pos.eqb] in Hfind.
  destruct (fc_scan true (Some Robot) (Some (BMsg m)) (rev cs)) eqn:S; [discriminate|].
  apply c10_fc_scan_strict_none in S. rewrite R in S. exact S.
Qed.

Lemma c10_robots_snoc cs c : robots (cs ++ [c]) = robots cs ++ (if is_robot c then [c] else []).
Proof. unfold robots. rewrite filter_app. cbn [filter]. destruct (is_robot c); reflexivity. Qed.

Lemma c10_posts_strict ms : forall cs n a,
  posts cs n ms = Some a -> quiet_ok (robots cs) = true -> quiet_ok (robots (cs ++ a)) = true.
Proof.
  induction ms as [|m t IH]; intros cs n a H Hq; [injection H as <-; rewrite app_nil_r; exact Hq|].
  apply c10_posts_cons in H as [[_ H]|(c & a' & N & H & ->)]; [exact (IH _ _ _ H Hq)|].
  change (cs ++ c :: a') with (cs ++ [c] ++ a'). rewrite app_assoc. apply (IH _ _ _ H).
  rewrite c10_robots_snoc.
  pose proof (c10_notify_strict _ _ _ _ N) as Hs. apply c10_notify_posted in N as [-> _].
  cbn [is_robot c_author author_eqb]. rewrite c10_qo_snoc, Hq, Hs. reflexivity.
Qed.

(* the template classes that are not strict, with the Facts: the informational ones and the answers on request;
   the Facts are emitted from /repo on every run, and the second list is what they give when the two answers to
   `reset` are de-duplicated as well *)
Lemma c10_strict_classes :
  map (fun e => fst (fst (fst e)))
      (filter (fun e => match class_policy (fst (fst (fst e))) with
                        | Some p => negb (match p with Some z => Z.eqb z (-1) | None => false end)
                        | None => false
                        end) message_classes)
  = ["InformationException"; "InitMessage"; "HelpMessage"; "CommandNotImplemented"; "StatusReport";
     "IntegrationDataCreated"; "PartialMerge"; "ResetComplete"; "LossyResetWarning"]
  \/ map (fun e => fst (fst (fst e)))
      (filter (fun e => match class_policy (fst (fst (fst e))) with
                        | Some p => negb (match p with Some z => Z.eqb z (-1) | None => false end)
                        | None => false
                        end) message_classes)
  = ["InformationException"; "InitMessage"; "HelpMessage"; "CommandNotImplemented"; "StatusReport";
     "IntegrationDataCreated"; "PartialMerge"].
Proof. first [left; vm_compute; reflexivity | right; vm_compute; reflexivity]. Qed.

(* C10_once *)

Definition replied (r : list nat * list comment) : Prop := fst r <> [] -> snd r <> [].

Record once_inv (w : world) : Prop := {
  oi_ids   : forall c, In c (w_cs w) -> c_id c < w_next w;
  oi_nodup : NoDup (map c_id (w_cs w));
  oi_log   : forall i, In i (w_log w) -> i < w_next w;
  oi_done  : forall i, In i (w_log w) -> ~ In i (map c_id (pending (w_cs w)));
  oi_once  : NoDup (w_log w)
}.

Lemma c10_fresh_ids cs next app :
  (forall c, In c cs -> c_id c < next) -> NoDup (map c_id cs) -> map c_id app = seq next (List.length app) ->
  (forall c, In c (cs ++ app) -> c_id c < next + List.length app) /\ NoDup (map c_id (cs ++ app)).
Proof.
  intros Hlt Hn Happ. split.
  - intros c Hin. apply in_app_or in Hin as [Hin|Hin]; [specialize (Hlt _ Hin); lia|].
    apply (in_map c_id) in Hin. rewrite Happ in Hin. apply in_seq in Hin. lia.
  - rewrite map_app, Happ. apply NoDup_app; [exact Hn|apply seq_NoDup|].
    intros i Hi Hs. apply in_map_iff in Hi as (c & <- & Hc). apply in_seq in Hs. specialize (Hlt _ Hc). lia.
Qed.

(* The invariant holds as long as every evaluation that executed a command has also posted something: the post
   makes the robot's comment the newest one, so the executed commands are no longer pending.  The hypothesis is
   about the final world; since w_evals only grows it holds of every world on the way, so what is carried along
   the history is the implication [Forall replied (w_evals w) -> once_inv w]. *)
Lemma c10_run_once tr w w' :
  run_trace false w tr = Some w' -> once_inv w -> Forall replied (w_evals w') -> once_inv w'.
Proof.
  intros H Hw. revert H.
  apply (c10_run_trace_ind (fun _ w => Forall replied (w_evals w) -> once_inv w)); [| | |exact (fun _ => Hw)];
    clear; cbn [w_evals].
  - (* a user comment: it becomes pending, and has never been executed *)
    intros u x _ w I HF. destruct (I HF) as [I1 I2 I3 I4 I5].
    set (c := mk_comment (w_next w) (User u) (BUser x)).
    destruct (c10_fresh_ids (w_cs w) (w_next w) [c] I1 I2 eq_refl) as [F1 F2]. cbn [List.length] in F1.
    rewrite Nat.add_1_r in F1.
    constructor; cbn [w_cs w_next w_log]; [exact F1|exact F2| |rewrite c10_pending_snoc|exact I5].
    + intros i Hi. specialize (I3 _ Hi). lia.
    + intros i Hi [Hin|Hin]; [specialize (I3 _ Hi); cbn in Hin; lia|exact (I4 _ Hi Hin)].
  - (* a user deletes a comment of his: the pending set shrinks *)
    intros i _ w I HF. destruct (I HF) as [I1 I2 I3 I4 I5].
    constructor; cbn [w_cs w_next w_log]; [|apply NoDup_map_filter, I2|exact I3| |exact I5].
    + intros c Hin. apply filter_In in Hin. apply I1, Hin.
    + intros j Hj Hin. apply (I4 _ Hj). rewrite c10_pending_filter in Hin.
      * apply in_map_iff in Hin as (c & <- & Hc). apply filter_In in Hc. apply in_map, Hc.
      * intros c Hc. unfold keep_on_delete. rewrite Hc. reflexivity.
  - (* an evaluation *)
    intros o _ w ex app I E HF. apply Forall_app in HF as [HF Hrep]. destruct (I HF) as [I1 I2 I3 I4 I5].
    inversion Hrep as [|r l Hr _]. subst. unfold replied in Hr. cbn [fst snd] in Hr.
    destruct (c10_eval_shape _ _ _ _ _ E) as (S1 & S2 & S3 & S4).
    destruct (c10_fresh_ids _ _ _ I1 I2 S4) as [F1 F2].
    constructor; cbn [w_cs w_next w_log]; [exact F1|exact F2| | |].
    + intros j Hj. apply in_app_or in Hj as [Hj|Hj]; [specialize (I3 _ Hj); lia|].
      apply S1, in_map_iff in Hj as (c & <- & Hc). apply c10_pending_incl in Hc. specialize (I1 _ Hc). lia.
    + rewrite (c10_pending_app_robots _ _ S3). destruct app; [|intros _ _ []].
      destruct ex; [|destruct Hr; [discriminate|reflexivity]]. rewrite app_nil_r. exact I4.
    + apply NoDup_app; [exact I5|exact (S2 I2)|]. intros j Hj1 Hj2. exact (I4 _ Hj1 (S1 _ Hj2)).
Qed.

(* the statement, for every history of a pull request: no command comment is executed twice *)
Definition once_full : Prop :=
  forall tr w, oracles_okb tr = true -> run_trace false world0 tr = Some w -> executed_once (w_log w).

(* ... provided every evaluation that executed a command also posted something (the reply) *)
Definition once_partial : Prop :=
  forall tr w, run_trace false world0 tr = Some w -> Forall replied (w_evals w) -> executed_once (w_log w).

Theorem c10_once_partial : once_partial.
Proof.
  intros tr w H HF. apply (c10_run_once _ _ _ H); [|exact HF].
  constructor; cbn; try (intros; contradiction); constructor.
Qed.


Definition replies_okb (o : oracle) : bool :=
  forallb (fun e => is_command (fst e) && existsb (String.eqb (m_cls (snd e))) (command_classes (fst e)))
          (o_reply o)
  && forallb (fun e => negb (command_always_raises (fst e))
                       || match reply_of o (fst e) with Some _ => true | None => false end) commands.

Lemma c10_switch_reply o kw :
  replies_always_posted = true -> replies_okb o = true -> is_command kw = true ->
  exists m, reply_of o kw = Some m /\ reply_certain (m_cls m) = true.
Proof.
  intros Hsw Hok Hcmd. unfold is_command in Hcmd.
  destruct (command_entry kw) as [[[priv classes] always]|] eqn:E; [|discriminate].
  pose proof (find_fst_eqb _ _ _ E) as Hin.
  unfold replies_always_posted in Hsw. rewrite forallb_forall in Hsw. specialize (Hsw _ Hin).
  cbn [command_ok] in Hsw. apply andb_prop in Hsw as [-> Hcert].
  apply andb_prop in Hok as [Hok1 Hok2].
  rewrite forallb_forall in Hok2. specialize (Hok2 _ Hin). cbn [fst] in Hok2.
  unfold command_always_raises in Hok2. rewrite E in Hok2. cbn [negb orb] in Hok2.
  destruct (reply_of o kw) as [m|] eqn:R; [|discriminate]. exists m. split; [reflexivity|].
  rewrite forallb_forall in Hok1. specialize (Hok1 _ (find_fst_eqb _ _ _ R)). cbn [fst snd] in Hok1.
  apply andb_prop in Hok1 as [_ Hcls]. unfold command_classes in Hcls. rewrite E in Hcls.
  apply existsb_exists in Hcls as (c & Hc & Heq). apply String.eqb_eq in Heq. subst c.
  rewrite forallb_forall in Hcert. exact (Hcert _ Hc).
Qed.

(* the scan when every command raises: at most one command runs, and it is the one that raises *)
Lemma c10_scan_switch o l ex0 :
  (forall kw, is_command kw = true -> exists m, reply_of o kw = Some m /\ reply_certain (m_cls m) = true) ->
  match scan_commands o l ex0 with
  | ScanDone ex => ex = ex0
  | ScanRaise ex m => ex = ex0 \/ reply_certain (m_cls m) = true
  end.
Proof.
  intros Hall. induction l as [|c l IH]; [reflexivity|].
  cbn [scan_commands]. destruct (c_author c); [exact IH|]. destruct (c_body c) as [m|[t|kw]]; try exact IH.
  destruct (is_command kw) eqn:Hc.
  - destruct (Hall kw Hc) as (m & -> & R). right. exact R.
  - destruct (is_option kw); [exact IH|]. left. reflexivity.
Qed.

Lemma c10_reply_posted o cs next ex app :
  replies_always_posted = true -> replies_okb o = true ->
  eval_step false o cs next = Some (ex, app) -> replied (ex, app).
Proof.
  intros Hsw Hok H Hex. cbn [fst snd] in *. apply c10_eval_step_inv in H as (ms & P & Ps).
  apply c10_plan_cases in P as [->|[_ P]]; [destruct Hex; reflexivity|].
  pose proof (c10_scan_switch o (pending cs) [] (fun kw => c10_switch_reply o kw Hsw Hok)) as Hs.
  destruct (scan_commands o (pending cs) []) as [ex0|ex0 m] eqn:S; destruct P as [-> ->]; [contradiction|].
  destruct Hs as [Hs|Hcert]; [contradiction|]. apply c10_scan_raise_nonempty in S.
  destruct (c10_certain_posted cs next m Hcert S) as [c Hc].
  apply c10_posts_cons in Ps as [[N _]|(c' & a' & _ & _ & ->)]; [rewrite Hc in N|]; discriminate.
Qed.

Theorem c10_once_full_of_switch : replies_always_posted = true -> once_full.
Proof.
  intros Hsw tr w Hok H. apply (c10_once_partial tr w H). revert H.
  refine (fun H => proj2 (c10_run_trace_ind (fun tr w => oracles_okb tr = true /\ Forall replied (w_evals w)) _ _ _
                            tr world0 w (conj Hok (Forall_nil _)) H)); cbn [w_evals oracles_okb]; clear - Hsw.
  - intros _ _ tr w I. exact I.
  - intros _ tr w I. exact I.
  - (* by conversion: replies_okb o is the first two conjuncts of oracle_okb o *)
    intros o tr w ex app [Hok HF] E. apply andb_prop in Hok as [Ho Hok]. apply andb_prop in Ho as [Ho _].
    split; [exact Hok|]. apply Forall_app. split; [exact HF|]. constructor; [|constructor].
    exact (c10_reply_posted o _ _ _ _ Hsw Ho E).
Qed.


(* meant to hold for any Facts (it is evaluated on the current ones): through the witness when they contain a command whose reply can be suppressed,
   through the last branch (replies_always_posted itself) when they contain none and there is nothing to refute *)
Definition once_refutation_check : bool :=
  match bad_witness with
  | Some tr => match run_trace false world0 tr with
               | Some w => negb (nodupb (w_log w)) && oracles_okb tr
               | None => false
               end
  | None => replies_always_posted
  end.

Lemma c10_once_refutation_check : once_refutation_check = true.
Proof. vm_compute. reflexivity. Qed.

Lemma c10_nodupb_complete : forall l, NoDup l -> nodupb l = true.
Proof.
  induction l as [|x l IH]; intros H; [reflexivity|]. apply NoDup_cons_iff in H as [Hx H].
  cbn [nodupb]. rewrite (IH H), andb_true_r. destruct (existsb (Nat.eqb x) l) eqn:E; [|reflexivity].
  apply existsb_exists in E as (z & Hz & E). apply Nat.eqb_eq in E. subst z. contradiction.
Qed.

Theorem c10_once_refuted_of_switch : replies_always_posted = false -> ~ once_full.
Proof.
  intros Hsw Hfull. pose proof c10_once_refutation_check as Hc. unfold once_refutation_check in Hc.
  destruct bad_witness as [tr|]; [|rewrite Hsw in Hc; discriminate].
  destruct (run_trace false world0 tr) as [w|] eqn:R; [|discriminate].
  apply andb_prop in Hc as [Hd Hok]. rewrite (c10_nodupb_complete _ (Hfull tr w Hok R)) in Hd. discriminate.
Qed.

(* C10_converge *)

(* the world has settled: what the non-command part of an evaluation wants to say is at most one message, of a
   class that _send_comment de-duplicates *)
Definition settledb (o : oracle) : bool :=
  match o_rest o with [] => true | [m] => quiet_class m | _ => false end
  && match o_opt o with Some m => quiet_class m | None => true end
  && match o_early o with Some (Some m) => quiet_class m | _ => true end.

Definition with_rest (o : oracle) (rest : list msg) : oracle :=
  mk_oracle (o_early o) (o_opt o) (o_reply o) rest.

Lemma c10_scan_with_rest o rest l : forall ex, scan_commands (with_rest o rest) l ex = scan_commands o l ex.
Proof.
  induction l as [|c l IH]; intros ex; [reflexivity|].
  cbn [scan_commands]. destruct (c_author c); [apply IH|]. destruct (c_body c) as [m|[t|kw]]; try apply IH.
  change (reply_of (with_rest o rest) kw) with (reply_of o kw). rewrite !IH. reflexivity.
Qed.

(* on a pull request the robot has commented and with nothing for the command loop to do, a settled oracle has
   at most one message to say, of a de-duplicated class *)
Lemma c10_plan_settled o : settledb o = true ->
  exists ms, (ms = [] \/ exists m, ms = [m] /\ always_post (m_cls m) = false) /\
             forall cs, existsb is_robot cs = true -> scan_commands o (pending cs) [] = ScanDone [] ->
                        plan o (o_rest o) cs = ([], ms).
Proof.
  intros Hs. apply andb_prop in Hs as [Hs H3]. apply andb_prop in Hs as [H1 H2]. unfold plan.
  assert (Q : forall m, quiet_class m = true -> exists m', [m] = [m'] /\ always_post (m_cls m') = false).
  { intros m Hm. exists m. split; [reflexivity|exact (proj1 (negb_true_iff _) Hm)]. }
  destruct (o_early o) as [[e|]|].
  - exists [e]. split; [right; exact (Q _ H3)|reflexivity].
  - exists []. split; [left; reflexivity|reflexivity].
  - destruct (o_opt o) as [p|].
    + exists [p]. split; [right; exact (Q _ H2)|]. intros cs -> _. reflexivity.
    + exists (o_rest o). split; [|intros cs -> ->; reflexivity].
      destruct (o_rest o) as [|x [|y t]]; [left; reflexivity|right; exact (Q _ H1)|discriminate].
Qed.

Lemma c10_posts_twice cs n n' m a b :
  always_post (m_cls m) = false -> posts cs n [m] = Some a -> posts (cs ++ a) n' [m] = Some b -> b = [].
Proof.
  intros Hq Ha Hb. apply c10_posts_cons in Ha as [[N Ha]|(c & a' & N & Ha & ->)]; injection Ha as <-.
  - rewrite app_nil_r in Hb. apply c10_posts_cons in Hb as [[_ Hb]|(c & b' & N' & _)].
    + injection Hb as <-. reflexivity.
    + rewrite (c10_notify_quiet_next _ _ n' _ N) in N'. discriminate.
  - apply c10_posts_cons in Hb as [[_ Hb]|(c' & b' & N' & _)].
    + injection Hb as <-. reflexivity.
    + rewrite (c10_notify_after_post _ _ n' _ _ N Hq) in N'; [discriminate|]. rewrite N'. discriminate.
Qed.

Lemma c10_two_steps_quiet o cs n n' ex2 app2 ex3 app3 :
  settledb o = true -> existsb is_robot cs = true -> scan_commands o (pending cs) [] = ScanDone [] ->
  eval_step false o cs n = Some (ex2, app2) ->
  eval_step false o (cs ++ app2) n' = Some (ex3, app3) ->
  ex3 = [] /\ app3 = [].
Proof.
  intros Hs Hrob Hscan E2 E3. destruct (c10_plan_settled o Hs) as (ms & Hms & Hplan).
  apply c10_eval_step_inv in E2 as (ms2 & E2 & P2). rewrite (Hplan cs Hrob Hscan) in E2. injection E2 as <- <-.
  destruct (c10_posts_shape _ _ _ _ P2) as [Ha _].
  apply c10_eval_step_inv in E3 as (ms3 & E3 & P3). rewrite Hplan in E3.
  - injection E3 as <- <-. split; [reflexivity|].
    destruct Hms as [->|(m & -> & Hq)]; [injection P3 as <-; reflexivity|exact (c10_posts_twice _ _ _ _ _ _ Hq P2 P3)].
  - rewrite existsb_app, Hrob. reflexivity.
  - rewrite (c10_pending_app_robots _ _ Ha). destruct app2; [exact Hscan|reflexivity].
Qed.

(* three successive evaluations with nothing changing outside: the first in whatever state the repository was
   (its non-command part may say anything: r1), the next two in the settled world.  [premise] chooses what is
   assumed of the first one: that it posted something if it executed a command (true), or only that the oracle
   answers every command as replies_okb asks (false) *)
Definition converge_body (premise : bool) : Prop :=
  forall o r1 cs next ex1 app1 ex2 app2 ex3 app3,
    (if premise then ex1 <> [] -> app1 <> [] else replies_okb o = true) ->
    settledb o = true ->
    eval_step false (with_rest o r1) cs next = Some (ex1, app1) ->
    eval_step false o (cs ++ app1) (next + List.length app1) = Some (ex2, app2) ->
    eval_step false o ((cs ++ app1) ++ app2) (next + List.length app1 + List.length app2) = Some (ex3, app3) ->
    quiet (ex3, app3).

Definition converge_partial : Prop := converge_body true.
Definition converge_full : Prop := converge_body false.

Theorem c10_converge_partial : converge_partial.
Proof.
  intros o r1 cs next ex1 app1 ex2 app2 ex3 app3 Hprem Hs E1 E2 E3. unfold quiet.
  assert (Hgoal : ex3 = [] /\ app3 = []); [|destruct Hgoal; subst; reflexivity].
  destruct app1 as [|a app1'].
  - (* the first evaluation appended nothing, hence executed nothing *)
    assert (ex1 = []) as -> by (destruct ex1; [reflexivity|destruct Hprem; [discriminate|reflexivity]]).
    rewrite app_nil_r in E2, E3. cbn [List.length] in E2, E3. rewrite Nat.add_0_r in E2, E3.
    (* if it stopped before the rest, the second and the third are the same computation *)
    assert (Hsame : eval_step false o cs next = Some ([], []) -> ex3 = [] /\ app3 = []).
    { intros E. rewrite E in E2. injection E2 as <- <-.
      rewrite app_nil_r, Nat.add_0_r, E in E3. injection E3 as <- <-. split; reflexivity. }
    rewrite c10_eval_step_plan in E1, Hsame. unfold plan in E1, Hsame.
    cbn [with_rest o_early o_opt o_rest] in E1. rewrite c10_scan_with_rest in E1.
    destruct (o_early o) as [[e|]|]; [exact (Hsame E1)..|]. destruct (o_opt o) as [p|]; [exact (Hsame E1)|].
    destruct (existsb is_robot cs) eqn:Seen.
    + destruct (scan_commands o (pending cs) []) as [ex|ex m] eqn:S; [|exact (Hsame E1)].
      cbn [app] in E1. destruct (posts cs next r1); [|discriminate]. injection E1 as -> _.
      exact (c10_two_steps_quiet o cs next _ _ _ _ _ Hs Seen S E2 E3).
    + (* the greeting would have been appended *)
      cbn [scan_commands app] in E1. destruct (posts cs next (init_message :: r1)) as [a|] eqn:Pa; [|discriminate].
      injection E1 as ->. apply c10_posts_cons in Pa as [[N _]|(c & a' & _ & _ & [=])].
      apply c10_notify_quiet_seen in N. rewrite Seen in N. discriminate.
  - (* the first evaluation appended something: the robot spoke last, nothing is pending *)
    destruct (c10_eval_shape _ _ _ _ _ E1) as (_ & _ & Hall & _).
    refine (c10_two_steps_quiet o _ _ _ ex2 app2 ex3 app3 Hs _ _ E2 E3).
    + rewrite existsb_app. cbn [existsb]. rewrite (Forall_inv Hall). apply orb_true_r.
    + rewrite (c10_pending_app_robots _ _ Hall). reflexivity.
Qed.

Theorem c10_converge_full_of_switch : replies_always_posted = true -> converge_full.
Proof.
  intros Hsw o r1 cs next ex1 app1 ex2 app2 ex3 app3 Hok Hs E1. cbn beta iota in Hok.
  apply (c10_converge_partial o r1 cs next ex1 app1 ex2 app2 ex3 app3); try assumption.
  (* by conversion: replies_okb does not read o_rest *)
  exact (c10_reply_posted (with_rest o r1) cs next ex1 app1 Hsw Hok E1).
Qed.

Definition last_oracle (tr : list event) : option oracle :=
  match rev tr with EvEval o :: _ => Some o | _ => None end.

Definition converge_refutation_check : bool :=
  match bad_witness with
  | None => replies_always_posted
  | Some tr =>
    match last_oracle tr, run_trace false world0 (firstn 4 tr) with
    | Some o, Some w =>
      match eval_step false (with_rest o []) (w_cs w) (w_next w) with
      | Some (ex1, app1) =>
        match eval_step false o (w_cs w ++ app1) (w_next w + List.length app1) with
        | Some (ex2, app2) =>
          match eval_step false o ((w_cs w ++ app1) ++ app2)
                          (w_next w + List.length app1 + List.length app2) with
          | Some r3 => negb (quiet_b r3) && replies_okb o && settledb o
          | None => false
          end
        | None => false
        end
      | None => false
      end
    | _, _ => false
    end
  end.

Lemma c10_converge_refutation_check : converge_refutation_check = true.
Proof. vm_compute. reflexivity. Qed.

Theorem c10_converge_refuted_of_switch : replies_always_posted = false -> ~ converge_full.
Proof.
  intros Hsw Hfull. pose proof c10_converge_refutation_check as Hc. unfold converge_refutation_check in Hc.
  destruct bad_witness as [tr|]; [|rewrite Hsw in Hc; discriminate].
  destruct (last_oracle tr) as [o|]; [|discriminate].
  destruct (run_trace false world0 (firstn 4 tr)) as [w|]; [|discriminate].
  destruct (eval_step false (with_rest o []) (w_cs w) (w_next w)) as [[ex1 app1]|] eqn:E1; [|discriminate].
  destruct (eval_step false o (w_cs w ++ app1) (w_next w + List.length app1)) as [[ex2 app2]|] eqn:E2; [|discriminate].
  destruct (eval_step false o ((w_cs w ++ app1) ++ app2) (w_next w + List.length app1 + List.length app2))
    as [r3|] eqn:E3; [|discriminate].
  apply andb_prop in Hc as [Hc Hset]. apply andb_prop in Hc as [Hq Hok]. destruct r3 as [ex3 app3].
  rewrite (Hfull o [] (w_cs w) (w_next w) ex1 app1 ex2 app2 ex3 app3 Hok Hset E1 E2 E3) in Hq. discriminate.
Qed.

(* C10_instance *)

Lemma c10_lookup_Forall {A} (P : A -> Prop) k (l : list (string * A)) v :
  Forall (fun e => P (snd e)) l -> lookup k l = Some v -> P v.
Proof.
  induction 1 as [|[k1 v1] l H1 _ IH]; [discriminate|]. cbn [lookup].
  destruct (String.eqb k1 k); [intros [= <-]; exact H1|exact IH].
Qed.

Lemma c10_update_Forall {A} (P : A -> Prop) k v (l : list (string * A)) :
  Forall (fun e => P (snd e)) l -> P v -> Forall (fun e => P (snd e)) (update k v l).
Proof.
  intros H Hv. induction H as [|[k1 v1] l H1 Hl IH]; [constructor|]. cbn [update].
  destruct (String.eqb k1 k); constructor; assumption.
Qed.

Definition no_shared (s : list (string * sval)) : Prop := Forall (fun e => snd e <> SShared) s.

Lemma c10_init_no_shared reg : no_shared (init_settings true reg).
Proof.
  apply Forall_forall. intros e He. apply in_map_iff in He as ([k d] & <- & _). destruct d; discriminate.
Qed.

Lemma c10_apply_call_copy s reg c s' reg' :
  no_shared s -> apply_call s reg c = Some (s', reg') -> reg' = reg /\ no_shared s'.
Proof.
  intros Hns. destruct c as [k x]. unfold apply_call.
  pose proof (c10_lookup_Forall (fun v => v <> SShared) k s) as Hl.
  pose proof (fun v => c10_update_Forall (fun v => v <> SShared) k v s Hns) as Hu.
  destruct (mutates_in_place k); destruct (lookup k s) as [v|]; try discriminate.
  - destruct v as [b| |l|]; try discriminate; [|destruct (Hl _ Hns eq_refl); reflexivity].
    intros [= <- <-]. split; [reflexivity|apply Hu; discriminate].
  - intros [= <- <-]. split; [reflexivity|apply Hu; discriminate].
Qed.

Lemma c10_apply_calls_copy cl : forall s reg s' reg',
  no_shared s -> apply_calls s reg cl = Some (s', reg') -> reg' = reg /\ no_shared s'.
Proof.
  induction cl as [|c cl IH]; intros s reg s' reg' Hns H; cbn [apply_calls] in H.
  - injection H as <- <-. split; [reflexivity|exact Hns].
  - destruct (apply_call s reg c) as [[s1 reg1]|] eqn:A; [|discriminate].
    destruct (c10_apply_call_copy _ _ _ _ _ Hns A) as [-> Hn1]. exact (IH _ _ _ _ Hn1 H).
Qed.

(* with the copy a job never touches the registry *)
Lemma c10_job_keeps_registry reg cl v reg' : job_settings true reg cl = Some (v, reg') -> reg' = reg.
Proof.
  unfold job_settings. destruct (apply_calls (init_settings true reg) reg cl) as [[s r]|] eqn:A; [|discriminate].
  intros [= _ <-]. apply (c10_apply_calls_copy _ _ _ _ _ (c10_init_no_shared reg) A).
Qed.

Lemma c10_jobs_keep_registry jobs : forall reg reg', after_jobs true reg jobs = Some reg' -> reg' = reg.
Proof.
  induction jobs as [|cl jobs IH]; intros reg reg' H; cbn [after_jobs] in H; [injection H as <-; reflexivity|].
  destruct (job_settings true reg cl) as [[v r]|] eqn:J; [|discriminate].
  apply c10_job_keeps_registry in J. subst r. exact (IH _ _ H).
Qed.

Lemma c10_init_copies : init_settings_copies = true.
Proof. reflexivity. Qed.

(* what a job reads, after the instance processed `earlier`, with the registry and init_settings of the Facts *)
Definition settings_after (earlier : list (list opt_call)) (cl : list opt_call) : option (list (string * vval)) :=
  match registry0 with
  | None => None
  | Some reg0 =>
    match after_jobs init_settings_copies reg0 earlier with
    | None => None
    | Some reg => match job_settings init_settings_copies reg cl with
                  | Some (v, _) => Some v
                  | None => None
                  end
    end
  end.

(* the registry of the Facts is well formed, and C10_instance is about something: a job that asks to wait for
   two pull requests reads exactly these two, also after another job asked for a third *)
Example c10_instance_example :
  settings_after [[("after_pull_request", "9")]] [("after_pull_request", "3"); ("after_pull_request", "7")]
  = settings_after [] [("after_pull_request", "3"); ("after_pull_request", "7")]
  /\ settings_after [] [("after_pull_request", "3")] <> None.
Proof. vm_compute. split; [reflexivity|discriminate]. Qed.

(* without the copy the same model leaks (so C10_instance does depend on the copy; should no option mutate its
   value in place there is nothing to leak, and the check is true for that reason): the first option whose
   handler mutates its value in place *)
Definition leak_check : bool :=
  match find (fun e => snd e) options, registry0 with
  | Some ((k, _), _), Some reg0 =>
    match after_jobs false reg0 [[(k, "9")]] with
    | Some reg => match job_settings false reg [], job_settings false reg0 [] with
                  | Some (v1, _), Some (v2, _) =>
                    negb (Nat.eqb
                            (List.length (filter (fun e => match snd e with VSet (_ :: _) => true | _ => false end) v1))
                            (List.length (filter (fun e => match snd e with VSet (_ :: _) => true | _ => false end) v2)))
                  | _, _ => false
                  end
    | None => false
    end
  | None, Some _ => true
  | _, None => false
  end.

(* examples *)

(* the oracle of the examples: `reset` and `help` are answered, an approval is still missing *)
Definition ex_oracle : oracle :=
  mk_oracle None None [("reset", mk_msg "ResetComplete" "" 0); ("help", mk_msg "HelpMessage" "" 0)]
            [mk_msg "ApprovalRequired" "" 0].

Example c10_example_history :
  match run_trace false world0 [EvEval ex_oracle; EvComment 1 (UCall "help"); EvEval ex_oracle;
                                EvComment 1 (UCall "help"); EvEval ex_oracle; EvEval ex_oracle] with
  | Some w => w_log w = [2; 4] /\ List.length (w_cs w) = 7 /\ twice_in_a_row (w_cs w) = false
  | None => False
  end.
Proof. vm_compute. repeat split. Qed.

Example c10_example_pending :
  pending [mk_comment 0 Robot (BMsg init_message); mk_comment 1 (User 1) (BUser (UCall "help"));
           mk_comment 2 (User 2) (BUser (UPlain 0))]
  = [mk_comment 2 (User 2) (BUser (UPlain 0)); mk_comment 1 (User 1) (BUser (UCall "help"))].
Proof. reflexivity. Qed.

Example c10_example_suppressed :
  notify false [mk_comment 0 Robot (BMsg (mk_msg "ApprovalRequired" "" 0)); mk_comment 1 (User 1) (BUser (UPlain 0))]
         2 (mk_msg "ApprovalRequired" "" 0) = NQuiet
  /\ (exists c, notify false [mk_comment 0 Robot (BMsg (mk_msg "ApprovalRequired" "" 0))] 1
                        (mk_msg "ApprovalRequired" "" 1) = NPosted c)
  /\ (exists c, notify false [mk_comment 0 Robot (BMsg (mk_msg "HelpMessage" "" 0))] 1
                        (mk_msg "HelpMessage" "" 0) = NPosted c).
Proof.
  split; [vm_compute; reflexivity|].
  split; [exists (mk_comment 1 Robot (BMsg (mk_msg "ApprovalRequired" "" 1)))
         |exists (mk_comment 1 Robot (BMsg (mk_msg "HelpMessage" "" 0)))]; vm_compute; reflexivity.
Qed.

(* hypotheses of C10_converge are satisfiable: a settled oracle and an evaluation that answers a pending help
   command; ex_oracle does not pass replies_okb (`status`, `build`, ... have no reply in it), so it is
   converge_partial that speaks about it *)
Example c10_example_converge :
  let cs := [mk_comment 0 Robot (BMsg init_message); mk_comment 1 (User 1) (BUser (UCall "help"))] in
  settledb ex_oracle = true /\ replies_okb ex_oracle = false /\
  eval_step false ex_oracle cs 2 = Some ([1], [mk_comment 2 Robot (BMsg (mk_msg "HelpMessage" "" 0))]).
Proof. vm_compute. repeat split. Qed.
