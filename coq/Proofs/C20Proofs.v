(* Proofs/C20Proofs.v - lemmas and proofs of C20 (admin jobs keep the repository well-formed or do nothing);
   imported by Properties/C20.v only, whose statements also use conforms, view_ok, qnames, never_fails and
   site_class of this file.  What a built and validated cascade means is Section Conforms (C20_validate_sound).
   Each handler of Model/AdminJobs.v is first reduced to the few ways it can end: c20_rebuild_cases (C20_queues_*,
   C20_refuse_queues), c20_create_ends (C20_create, C20_refuse_create, C20_create_not_success), c20_delete_ends
   with c20_delete_tail (C20_delete, C20_refuse_delete).  What rebuild_queues re-submits is c20_queued_prs_iff
   (C20_queued_members, C20_queue_order). *)
From Coq Require Import List String Ascii Bool Arith NArith Lia Sorted.
Require Import BertE.Base.Str BertE.Base.Lists BertE.Model.Names BertE.Model.Git BertE.Model.Flow BertE.Model.AdminJobs.
Require Import BertE.Generated.Facts_C20 BertE.Spec.C20Spec.
Require Import BertE.Proofs.GitProofs BertE.Proofs.FlowProofs BertE.Proofs.C18Proofs.
Import ListNotations.
Open Scope string_scope.
Open Scope list_scope.

Lemma c20_prefix_app p : forall n, String.prefix p n = true -> exists r, n = (p ++ r)%string.
Proof.
  induction p as [|a p IH]; intros n H; [exists n; reflexivity|].
  destruct n as [|b n]; cbn [String.prefix] in H; [discriminate H|].
  destruct (Ascii.ascii_dec a b) as [<-|]; [|discriminate H].
  destruct (IH n H) as [r ->]. exists r. reflexivity.
Qed.

Lemma c20_filter_le1 {A} (f : A -> bool) l x y :
  (List.length (filter f l) <= 1)%nat -> In x l -> In y l -> f x = true -> f y = true -> x = y.
Proof.
  intros L Hx Hy Fx Fy.
  assert (In x (filter f l) /\ In y (filter f l)) as [Ix Iy] by (split; apply filter_In; auto).
  destruct (filter f l) as [|a [|b t]]; [destruct Ix | | cbn in L; lia].
  destruct Ix as [<-|[]], Iy as [<-|[]]. reflexivity.
Qed.

Lemma c20_last_in {A} (t : list A) d : t <> [] -> In (last t d) t.
Proof.
  intro Hne. rewrite (app_removelast_last d Hne) at 2. apply in_elt.
Qed.

Lemma c20_last_opt_in {A} (l : list A) x : last_opt l = Some x -> In x l.
Proof.
  destruct l as [|h t]; cbn [last_opt]; [discriminate|]. intro H. injection H as <-.
  destruct t as [|h' t']; [left; reflexivity|]. right. apply c20_last_in. discriminate.
Qed.

Lemma c20_assoc_str_in {A} n (l : list (string * A)) v : assoc_str n l = Some v -> In (n, v) l.
Proof.
  induction l as [|[k x] t IH]; cbn [assoc_str]; [discriminate|].
  destruct (String.eqb_spec k n) as [->|Ne]; intro H; [injection H as ->; left; reflexivity | right; exact (IH H)].
Qed.

Lemma c20_before_rev {A} (x y : A) l : before_in x y l -> before_in y x (rev l).
Proof.
  intros (l1 & l2 & l3 & ->). exists (rev l3), (rev l2), (rev l1).
  rewrite rev_app_distr. cbn [rev]. rewrite rev_app_distr. cbn [rev].
  rewrite <- !app_assoc. reflexivity.
Qed.

Lemma c20_memN_in p l : memN p l = true <-> In p l.
Proof. exact (existsb_eqb_In N.eqb N.eqb_eq p l). Qed.

Lemma c20_nodupN_spec l : nodupN l = true -> NoDup l.
Proof.
  induction l as [|x t IH]; intro H; [constructor|]. cbn in H. apply andb_true_iff in H as [H1 H2].
  constructor; [|exact (IH H2)]. intro Hin. apply c20_memN_in in Hin. rewrite Hin in H1. discriminate H1.
Qed.

Lemma c20_subseq_cons x l : forall b, subseq (x :: l) b = true ->
  exists b1 b2, b = b1 ++ x :: b2 /\ subseq l b2 = true.
Proof.
  induction b as [|y b IH]; intro H; [discriminate H|]. cbn [subseq] in H.
  destruct (N.eqb_spec x y) as [->|Ne].
  - exists [], b. split; [reflexivity | exact H].
  - destruct (IH H) as (b1 & b2 & -> & S). exists (y :: b1), b2. split; [reflexivity | exact S].
Qed.

Lemma c20_subseq_mid l1 x l2 : forall b, subseq (l1 ++ x :: l2) b = true ->
  exists b1 b2, b = b1 ++ x :: b2 /\ subseq l2 b2 = true.
Proof.
  induction l1 as [|y l1 IH]; intros b H; [exact (c20_subseq_cons _ _ _ H)|].
  destruct (c20_subseq_cons _ _ _ H) as (c1 & c2 & -> & S).
  destruct (IH _ S) as (d1 & d2 & -> & S2). exists (c1 ++ y :: d1), d2.
  split; [rewrite <- app_assoc; reflexivity | exact S2].
Qed.

Lemma c20_subseq_in a b p : subseq a b = true -> In p a -> In p b.
Proof.
  intros S Hp. apply in_split in Hp as (l1 & l2 & ->).
  destruct (c20_subseq_mid _ _ _ _ S) as (b1 & b2 & -> & _). apply in_elt.
Qed.

Lemma c20_subseq_before a b x y : subseq a b = true -> before_in x y a -> before_in x y b.
Proof.
  intros S (l1 & l2 & l3 & ->).
  destruct (c20_subseq_mid _ _ _ _ S) as (b1 & b2 & -> & S1).
  destruct (c20_subseq_mid _ _ _ _ S1) as (c1 & c2 & -> & _).
  exists b1, c1, c2. reflexivity.
Qed.

Lemma c20_optN_eqb_eq a b : optN_eqb a b = true <-> a = b.
Proof. destruct a as [x|], b as [y|]; cbn; rewrite ?N.eqb_eq; split; congruence. Qed.

Lemma c20_optN_eqb_refl a : optN_eqb a a = true.
Proof. apply c20_optN_eqb_eq. reflexivity. Qed.

Lemma c20_dkind_eqb_eq a b : dkind_eqb a b = true <-> a = b.
Proof. destruct a, b; cbn; split; congruence. Qed.

Lemma c20_key_eqb_eq a b : key_eqb a b = true <-> a = b.
Proof.
  destruct a as [x1 y1], b as [x2 y2]. unfold key_eqb. cbn [fst snd].
  rewrite andb_true_iff, N.eqb_eq, c20_optN_eqb_eq. split; [intros [-> ->]; reflexivity | intros [= -> ->]; auto].
Qed.

Lemma c20_key_eqb_refl a : key_eqb a a = true.
Proof. apply c20_key_eqb_eq. reflexivity. Qed.

Lemma c20_key_lt_spec a b : key_lt a b = true <-> line_before a b.
Proof.
  destruct a as [x1 [m1|]], b as [x2 [m2|]]; unfold key_lt, line_before; cbn [fst snd];
    destruct (N.eqb_spec x1 x2); rewrite ?N.ltb_lt; intuition (lia || discriminate).
Qed.

Lemma c20_line_before_irrefl a : ~ line_before a a.
Proof. destruct a as [x [m|]]; unfold line_before; cbn [fst snd]; lia. Qed.

Lemma c20_line_before_trans a b c : line_before a b -> line_before b c -> line_before a c.
Proof.
  destruct a as [x1 [m1|]], b as [x2 [m2|]], c as [x3 [m3|]]; unfold line_before; cbn [fst snd]; lia.
Qed.

Lemma c20_line_total a b : line_before a b \/ a = b \/ line_before b a.
Proof.
  destruct a as [x1 [m1|]], b as [x2 [m2|]]; unfold line_before; cbn [fst snd];
    destruct (N.lt_trichotomy x1 x2) as [H|[->|H]]; auto 6.
  destruct (N.lt_trichotomy m1 m2) as [H|[->|H]]; auto 6.
Qed.

Lemma c20_key_lt_false a b : key_lt a b = false -> a = b \/ line_before b a.
Proof.
  intro H. destruct (c20_line_total a b) as [L|T]; [|exact T].
  apply c20_key_lt_spec in L. congruence.
Qed.

Lemma c20_insert_key_in k l x : In x (insert_key k l) <-> k = x \/ In x l.
Proof.
  induction l as [|h t IH]; cbn; [reflexivity|].
  destruct (key_lt k h); cbn; [reflexivity|].
  destruct (key_eqb k h) eqn:E; cbn.
  - apply c20_key_eqb_eq in E. subst h. split; [auto | intros [H|H]; auto].
  - split.
    + intros [H|H]; [auto | apply IH in H as [H|H]; auto].
    + intros [H|[H|H]]; [right; apply IH | | right; apply IH]; auto.
Qed.

Lemma c20_insert_key_sorted k l : StronglySorted line_before l -> StronglySorted line_before (insert_key k l).
Proof.
  induction 1 as [|h t St IH Fh]; cbn; [repeat constructor|].
  destruct (key_lt k h) eqn:L.
  - apply c20_key_lt_spec in L. constructor; [constructor; assumption|]. constructor; [exact L|].
    exact (Forall_impl _ (fun x => c20_line_before_trans _ _ x L) Fh).
  - destruct (key_eqb k h) eqn:E; [constructor; assumption|].
    constructor; [exact IH|]. apply Forall_forall. intros x Hx.
    apply c20_insert_key_in in Hx as [<-|Hx]; [|exact (proj1 (Forall_forall _ _) Fh x Hx)].
    destruct (c20_key_lt_false _ _ L) as [->|T]; [rewrite c20_key_eqb_refl in E; discriminate E | exact T].
Qed.

Lemma c20_sort_keys_in l x : In x (sort_keys l) <-> In x l.
Proof.
  induction l as [|h t IH]; cbn; [reflexivity|]. rewrite c20_insert_key_in, IH. reflexivity.
Qed.

Lemma c20_sort_keys_sorted l : StronglySorted line_before (sort_keys l).
Proof. induction l as [|h t IH]; cbn; [constructor | exact (c20_insert_key_sorted _ _ IH)]. Qed.

Lemma c20_dests_in heads d n c :
  In (d, n, c) (dests heads) <-> In (n, c) heads /\ parse_dest n = Some d.
Proof.
  unfold dests. rewrite in_flat_map. split.
  - intros [[n' c'] [Hin H]]. cbn [fst snd] in H. destruct (parse_dest n') as [d'|] eqn:P; [|destruct H].
    destruct H as [[= <- <- <-]|[]]. split; assumption.
  - intros [Hin P]. exists (n, c). split; [exact Hin|]. cbn [fst snd]. rewrite P. left. reflexivity.
Qed.

Lemma c20_members_in ds x : In x (members ds) <-> In x ds /\ d_kind (fst (fst x)) <> KHotfix.
Proof.
  unfold members. rewrite filter_In. unfold cascade_member.
  destruct (d_kind (fst (fst x))); cbn; intuition discriminate.
Qed.

Lemma c20_slot_some k key0 ds x :
  slot k key0 ds = Some x -> In x (members ds) /\ d_kind (fst (fst x)) = k /\ dkey (fst (fst x)) = key0.
Proof.
  unfold slot. intro H. apply find_some in H as [Hin H]. apply andb_true_iff in H as [H1 H2].
  apply c20_dkind_eqb_eq in H1. apply c20_key_eqb_eq in H2. auto.
Qed.

Lemma c20_slot_unique ds x :
  multiple ds = false -> In x (members ds) ->
  slot (d_kind (fst (fst x))) (dkey (fst (fst x))) ds = Some x.
Proof.
  intros M Hx.
  assert (Sx : same_slot (fst (fst x)) x = true).
  { unfold same_slot. rewrite c20_key_eqb_refl, (proj2 (c20_dkind_eqb_eq _ _) eq_refl). reflexivity. }
  destruct (slot _ _ ds) as [y|] eqn:F.
  - f_equal. destruct (c20_slot_some _ _ _ _ F) as (Hy & K1 & K2).
    apply (c20_filter_le1 (same_slot (fst (fst x))) (members ds) y x); [|exact Hy | exact Hx | | exact Sx].
    + apply Nat.ltb_ge. exact (proj1 (existsb_false_iff _ _) M x Hx).
    + unfold same_slot. rewrite K1, K2. exact Sx.
  - pose proof (find_none _ _ F x Hx) as H. cbn beta in H. unfold same_slot in Sx. congruence.
Qed.

Definition devtip (ds : list (dest * string * cid)) (k : key) : option cid :=
  option_map snd (slot KDev k ds).

Lemma c20_dev_branches_in ds x : In x (dev_branches ds) ->
  In x (members ds) /\ d_kind (fst (fst x)) = KDev /\ In (dkey (fst (fst x))) (line_keys ds).
Proof.
  unfold dev_branches. rewrite in_flat_map. intros [k [Hk H]].
  destruct (slot KDev k ds) as [y|] eqn:S; [|destruct H]. destruct H as [<-|[]].
  destruct (c20_slot_some _ _ _ _ S) as (M & K & E). rewrite E. auto.
Qed.

(* what validate checks of one line, [x] being its development branch *)
Definition line_ok (s : store) ds ts (k : key) (x : dest * string * cid) : Prop :=
  slot KDev k ds = Some x /\
  forall y, slot KStab k ds = Some y ->
    next_micro k ts = opt_default (d_micro (fst (fst y))) /\ anc s (snd y) (snd x) = true.

Lemma c20_validate_loop_cons s ds ts k rest prev :
  validate_loop s ds ts (k :: rest) prev = None ->
  exists x, line_ok s ds ts k x /\ (forall p, prev = Some p -> anc s p (snd x) = true) /\
    validate_loop s ds ts rest (Some (snd x)) = None.
Proof.
  unfold line_ok. cbn [validate_loop]. destruct (slot KDev k ds) as [[[dd dn] dc]|]; [|discriminate].
  intro H. exists (dd, dn, dc). cbn [snd].
  (* the test against the previous tip, whatever follows it *)
  assert (P : forall X, match prev with
                        | Some p => if negb (anc s p dc) then Some DevBranchesNotSelfContained else X
                        | None => X
                        end = None -> (forall p, prev = Some p -> anc s p dc = true) /\ X = None).
  { intros X HX. destruct prev as [p|]; [|split; [discriminate | exact HX]].
    destruct (anc s p dc) eqn:EP; [|discriminate HX]. split; [intros p' [= <-]; exact EP | exact HX]. }
  destruct (slot KStab k ds) as [[[sd sn] sc]|].
  - destruct (N.eqb_spec (next_micro k ts) (opt_default (d_micro sd))) as [EM|]; [|discriminate H].
    destruct (anc s sc dc) eqn:EA; [|discriminate H].
    split; [|exact (P _ H)]. split; [reflexivity|]. intros y [= <-]. auto.
  - split; [|exact (P _ H)]. split; [reflexivity|]. intros y E. discriminate E.
Qed.

Lemma c20_validate_loop_lines s ds ts : wf_store s -> forall ks prev,
  StronglySorted line_before ks -> validate_loop s ds ts ks prev = None ->
  forall k, In k ks ->
    exists x, line_ok s ds ts k x /\ (forall p, prev = Some p -> anc s p (snd x) = true) /\
      (forall k' x', In k' ks -> line_before k k' -> slot KDev k' ds = Some x' -> anc s (snd x) (snd x') = true).
Proof.
  intros W. induction ks as [|k0 rest IH]; intros prev S H k Hin; [destruct Hin|].
  apply StronglySorted_inv in S as [Srest F0]. rewrite Forall_forall in F0.
  destruct (c20_validate_loop_cons _ _ _ _ _ _ H) as (x0 & Ok0 & Px0 & Hrest).
  specialize (IH _ Srest Hrest).
  destruct Hin as [->|Hin].
  - exists x0. split; [exact Ok0|]. split; [exact Px0|].
    intros k' x' [->|Hk'] L Sx'; [destruct (c20_line_before_irrefl _ L)|].
    destruct (IH k' Hk') as (y & [Sy _] & Py & _). rewrite Sy in Sx'. injection Sx' as <-. exact (Py _ eq_refl).
  - destruct (IH k Hin) as (x & Ok & Px & Lx). exists x. split; [exact Ok|]. split.
    + intros p Ep. exact (anc_trans_b s p _ _ W (Px0 p Ep) (Px _ eq_refl)).
    + intros k' x' [->|Hk'] L; [|exact (Lx k' x' Hk' L)].
      destruct (c20_line_before_irrefl _ (c20_line_before_trans _ _ _ L (F0 k Hin))).
Qed.

Lemma c20_ptags_in tags p : In p (ptags tags) <-> exists t, In t tags /\ parse_tag t = Some p.
Proof.
  unfold ptags. rewrite in_flat_map. split.
  - intros [t [Hin H]]. destruct (parse_tag t) as [q|] eqn:P; [|destruct H]. destruct H as [<-|[]]. exists t. auto.
  - intros [t [Hin P]]. exists t. split; [exact Hin|]. rewrite P. left. reflexivity.
Qed.

Lemma c20_next_micro_spec k ts :
  (forall p, In p ts -> tag_on k p = true -> (snd p < next_micro k ts)%N) /\
  (next_micro k ts = 0%N \/ exists p, In p ts /\ tag_on k p = true /\ snd p = (next_micro k ts - 1)%N).
Proof.
  induction ts as [|q t [IH1 IH2]]; cbn [next_micro fold_right]; [split; [intros p [] | left; reflexivity]|].
  fold (next_micro k t). destruct (tag_on k q) eqn:T.
  - split.
    + intros p [<-|Hp] Tp; [lia|]. specialize (IH1 p Hp Tp). lia.
    + right. destruct (N.max_spec (snd q + 1) (next_micro k t)) as [[Hlt ->]|[Hle ->]].
      * destruct IH2 as [Z|(p & Hp & Tp & Ep)]; [lia|]. exists p. split; [right; exact Hp | split; assumption].
      * exists q. split; [left; reflexivity|]. split; [exact T | lia].
  - split.
    + intros p [<-|Hp] Tp; [rewrite T in Tp; discriminate Tp | exact (IH1 p Hp Tp)].
    + destruct IH2 as [Z|(p & Hp & Tp & Ep)]; [left; exact Z | right; exists p; split; [right; exact Hp | split; assumption]].
Qed.

Lemma c20_released_on_iff r k z :
  released_on r k z <-> exists p, In p (ptags (tag_names r)) /\ tag_on k p = true /\ snd p = z.
Proof.
  unfold released_on, tag_on. split.
  - intros (t & x & y & Hin & P & ->). exists (x, y, z). split; [apply c20_ptags_in; exists t; auto|].
    cbn [fst snd]. split; [apply c20_key_eqb_refl | reflexivity].
  - intros ([[x y] z'] & Hin & T & E). cbn [fst snd] in *. subst z'. apply c20_ptags_in in Hin as (t & Hin & P).
    apply c20_key_eqb_eq in T. exists t, x, y. auto.
Qed.

Lemma c20_queue_name_not_dest r : parse_dest ("q/" ++ r) = None.
Proof.
  (* the first part "q" leaves the two queue classes, and neither builds a destination *)
  unfold parse_dest. rewrite classify_split.
  change (split_first "/" ("q/" ++ r)) with (Some ("q", r)). cbv beta iota.
  change (group_of "q") with [QueueBranch; QueueIntegrationBranch]. cbn [first_some tail_form].
  destruct (scan_versioned QueueBranch "" 1 4 r) as [a|] eqn:T.
  - unfold scan_versioned in T. cbn [strip_prefix] in T.
    destruct (parse_version 1 4 (chomp r)); [|discriminate T]. injection T as <-. reflexivity.
  - destruct (split_first "/" r) as [[h2 r2]|]; [|reflexivity]. destruct (h2 =? "w")%string; [|reflexivity].
    destruct (split_first "/" r2) as [[p r3]|]; [|reflexivity]. destruct (is_num p); [|reflexivity].
    destruct (scan_integration_tail _ _ r3) as [a|] eqn:D; [|reflexivity]. rewrite integration_tail_spec in D.
    apply spec_derived_some in D as (v & cs & src & p' & l & t & _ & _ & _ & ->). reflexivity.
Qed.

Definition conforms (s : store) (heads : list (string * cid)) (tags : list string) : Prop :=
  build_error (dests heads) (ptags tags) = None /\ validate s (dests heads) (ptags tags) = None.

Definition bounded_heads (r : repo) : Prop := forall h, In h (r_heads r) -> (snd h < List.length (r_st r))%nat.

Lemma c20_conformance_none s heads tags : conformance_error s heads tags = None -> conforms s heads tags.
Proof.
  unfold conformance_error, conforms. destruct (build_error _ _); [discriminate|]. intro V. split; [reflexivity | exact V].
Qed.

Section Conforms.
  Variable r : repo.
  Hypothesis W : wf_store (r_st r).
  Hypothesis C : conforms (r_st r) (r_heads r) (tag_names r).

  Let ds := dests (r_heads r).
  Let ts := ptags (tag_names r).

  Lemma c20_conf_head n c d : In (n, c) (r_heads r) -> parse_dest n = Some d -> d_kind d <> KHotfix ->
    In (dkey d) (line_keys ds) /\ slot (d_kind d) (dkey d) ds = Some (d, n, c) /\
    exists x, line_ok (r_st r) ds ts (dkey d) x /\
      forall k' x', In k' (line_keys ds) -> line_before (dkey d) k' -> slot KDev k' ds = Some x' ->
        anc (r_st r) (snd x) (snd x') = true.
  Proof.
    intros Hin P K. destruct C as [B V].
    assert (M : In (d, n, c) (members ds)).
    { apply c20_members_in. split; [apply c20_dests_in; split; assumption | exact K]. }
    assert (Hk : In (dkey d) (line_keys ds)) by (apply c20_sort_keys_in; exact (in_map (fun x => dkey (fst (fst x))) _ _ M)).
    split; [exact Hk|]. split.
    - apply (c20_slot_unique ds (d, n, c)); [|exact M].
      unfold build_error in B. fold ds in B. destruct (multiple ds); [discriminate B | reflexivity].
    - destruct (c20_validate_loop_lines _ _ _ W _ _ (c20_sort_keys_sorted _) V _ Hk) as (x & Ok & _ & L). exists x. auto.
  Qed.

  Theorem c20_validate_sound_proof : incl_names r /\ cascade_rules r.
  Proof.
    split; [|split; [|split]].
    - intros n1 c1 d1 n2 c2 d2 H1 H2 P1 P2 [K2 L]. apply (anc_spec _ W).
      destruct (c20_conf_head _ _ _ H2 P2) as (Hk2 & S2 & _); [rewrite K2; discriminate|]. rewrite K2 in S2.
      destruct (c20_conf_head _ _ _ H1 P1) as (_ & S1 & x & [Sx St] & Ch); [destruct L as [[-> _]|[-> _]]; discriminate|].
      destruct L as [[K1 L]|[K1 L]]; rewrite K1 in S1.
      + rewrite Sx in S1. injection S1 as ->. exact (Ch _ _ Hk2 L S2).
      + destruct (St _ S1) as [_ A1]. destruct L as [E|L].
        * rewrite E, S2 in Sx. injection Sx as <-. exact A1.
        * exact (anc_trans_b _ _ _ _ W A1 (Ch _ _ Hk2 L S2)).
    - intros n c d Hin P K.
      destruct (c20_conf_head _ _ _ Hin P) as (_ & _ & [[d' n'] c'] & [Sx _] & _); [rewrite K; discriminate|].
      destruct (c20_slot_some _ _ _ _ Sx) as (M & Kd & Kk). cbn [fst] in Kd, Kk.
      apply c20_members_in in M as [M _]. apply c20_dests_in in M as [Hin' P'].
      exists n', c', d'. auto.
    - intros [n1 c1] [n2 c2] d1 d2 H1 H2 P1 P2 NH K E. cbn [fst] in P1, P2.
      destruct (c20_conf_head _ _ _ H1 P1 NH) as (_ & S1 & _).
      destruct (c20_conf_head _ _ _ H2 P2) as (_ & S2 & _); [rewrite <- K; exact NH|].
      rewrite K, E in S1. rewrite S1 in S2. injection S2 as _ -> ->. reflexivity.
    - intros n c d Hin P K.
      destruct (c20_conf_head _ _ _ Hin P) as (_ & S & x & [_ St] & _); [rewrite K; discriminate|]. rewrite K in S.
      destruct (St _ S) as [E _]. cbn [fst] in E.
      destruct (c20_next_micro_spec (dkey d) ts) as [N1 N2]. rewrite E in N1, N2. split.
      + intros z Rz. apply c20_released_on_iff in Rz as (p & Hp & Tp & <-). exact (N1 p Hp Tp).
      + destruct N2 as [Z|(p & Hp & Tp & Ep)]; [left; exact Z | right].
        apply c20_released_on_iff. exists p. auto.
  Qed.
End Conforms.

Lemma c20_only_queues_refl r : only_queues_removed r r.
Proof. split; [reflexivity|]. split; [reflexivity|]. split; auto. Qed.

Lemma c20_only_queues_keeps r r' : only_queues_removed r r' ->
  (incl_names r -> incl_names r') /\ (cascade_rules r -> cascade_rules r') /\
  (forall h d, In h (r_heads r) -> parse_dest (fst h) = Some d -> In h (r_heads r')).
Proof.
  intros (Et & Es & Sub & Keep).
  assert (K : forall h d, In h (r_heads r) -> parse_dest (fst h) = Some d -> In h (r_heads r')).
  { intros h d Hin P. apply Keep; [exact Hin|]. intro Q. apply c20_prefix_app in Q as [q E].
    rewrite E, c20_queue_name_not_dest in P. discriminate P. }
  split; [|split; [|exact K]].
  - intros I n1 c1 d1 n2 c2 d2 H1 H2 P1 P2 L. rewrite Es. exact (I n1 c1 d1 n2 c2 d2 (Sub _ H1) (Sub _ H2) P1 P2 L).
  - intros (R1 & R2 & R3). split; [|split].
    + intros n c d Hin P Kd. destruct (R1 n c d (Sub _ Hin) P Kd) as (n' & c' & d' & Hin' & P' & K' & E').
      exists n', c', d'. split; [exact (K (n', c') d' Hin' P') | auto].
    + intros h1 h2 d1 d2 H1 H2. exact (R2 h1 h2 d1 d2 (Sub _ H1) (Sub _ H2)).
    + intros n c d Hin P Kd. unfold released_on, tag_names in *. rewrite Et. exact (R3 n c d (Sub _ Hin) P Kd).
Qed.

Definition add_new (a : list N) (p : N) : list N := if memN p a then a else p :: a.

(* pr_hf and pr_ids of QueueCollection.queued_prs (Model/AdminJobs.queued_prs), named *)
Definition hf_prs (l : list qentry) (acc : list N) : list N :=
  fold_left (fun acc e => if (qlen e =? 4)%nat then fold_left add_new (q_prs e) acc else acc) l acc.
Definition last_prs (qs : list qentry) : list N :=
  match find (fun e => (qlen e <? 4)%nat) (rev qs) with Some e => rev (q_prs e) | None => [] end.

Lemma c20_queued_prs_eq qs :
  queued_prs qs = hf_prs (rev qs) [] ++ filter (fun p => negb (memN p (hf_prs (rev qs) []))) (last_prs qs).
Proof. reflexivity. Qed.

Lemma c20_in_add_new p ps : forall a, In p (fold_left add_new ps a) <-> In p a \/ In p ps.
Proof.
  induction ps as [|q ps IH]; intro a; cbn [fold_left]; [cbn; tauto|].
  rewrite IH. unfold add_new. destruct (memN q a) eqn:M; cbn [In]; [|tauto].
  apply c20_memN_in in M. split; [tauto|]. intros [H|[<-|H]]; auto.
Qed.

Lemma c20_in_hf_prs p l : forall acc,
  In p (hf_prs l acc) <-> In p acc \/ Exists (fun e => qlen e = 4%nat /\ In p (q_prs e)) l.
Proof.
  unfold hf_prs. induction l as [|e l IH]; intro acc; cbn [fold_left]; [rewrite Exists_nil; tauto|].
  rewrite IH, Exists_cons. destruct (Nat.eqb_spec (qlen e) 4) as [E|E]; [rewrite c20_in_add_new|]; tauto.
Qed.

Lemma c20_queued_prs_in qs p : In p (queued_prs qs) <-> In p (hf_prs (rev qs) []) \/ In p (last_prs qs).
Proof.
  (* the filter only drops what the first part already has *)
  rewrite c20_queued_prs_eq, in_app_iff, filter_In.
  destruct (memN p (hf_prs (rev qs) [])) eqn:M; cbn [negb]; [apply c20_memN_in in M|]; intuition discriminate.
Qed.

Lemma c20_qlen_lt e : (qlen e <? 4)%nat = negb (qlen e =? 4)%nat.
Proof. unfold qlen. destruct (q_micro e), (q_hfrev e); reflexivity. Qed.

Lemma c20_last_prs_cases qs : last_prs qs = [] \/ exists lastq, In lastq qs /\ last_prs qs = rev (q_prs lastq).
Proof.
  unfold last_prs. destruct (find _ (rev qs)) as [lastq|] eqn:F; [right | left; reflexivity].
  apply find_some in F as [Hl _]. exists lastq. split; [apply in_rev; exact Hl | reflexivity].
Qed.

Lemma c20_coherent_last qs e : queues_coherent qs = true -> In e qs -> qlen e <> 4%nat ->
  exists lastq, last_prs qs = rev (q_prs lastq) /\ subseq (q_prs e) (q_prs lastq) = true.
Proof.
  intros Co He N. apply Nat.eqb_neq in N.
  unfold queues_coherent in Co. apply andb_true_iff in Co as [_ Co]. unfold last_prs.
  destruct (find _ (rev qs)) as [lastq|] eqn:F.
  - exists lastq. split; [reflexivity|]. apply andb_true_iff in Co as [Sub _].
    rewrite forallb_forall in Sub. specialize (Sub e He). rewrite N in Sub. exact Sub.
  - apply in_rev in He. pose proof (find_none _ _ F e He) as Hn. cbn beta in Hn.
    rewrite c20_qlen_lt, N in Hn. discriminate Hn.
Qed.

Theorem c20_queued_prs_iff qs : queues_coherent qs = true ->
  forall p, In p (queued_prs qs) <-> exists e, In e qs /\ In p (q_prs e).
Proof.
  intros Co p. rewrite c20_queued_prs_in, c20_in_hf_prs, Exists_exists. split.
  - intros [[[]|(e & He & _ & Hp)]|Hp].
    + exists e. split; [apply in_rev; exact He | exact Hp].
    + destruct (c20_last_prs_cases qs) as [E|(lastq & Hl & E)]; rewrite E in Hp; [destruct Hp|].
      exists lastq. split; [exact Hl | apply in_rev; exact Hp].
  - (* only this direction needs coherence *)
    intros (e & He & Hp). destruct (Nat.eq_dec (qlen e) 4) as [E|E].
    + left. right. exists e. split; [apply in_rev in He; exact He | auto].
    + right. destruct (c20_coherent_last qs e Co He E) as (lastq & -> & Sub).
      apply in_rev. rewrite rev_involutive. exact (c20_subseq_in _ _ _ Sub Hp).
Qed.

Theorem c20_queue_order_proof qs :
  queues_coherent qs = true -> (forall e, In e qs -> ~ hotfix_queue e) ->
  queue_order qs (queued_prs qs).
Proof.
  intros Co Nh.
  assert (Hf : hf_prs (rev qs) [] = []).
  { destruct (hf_prs (rev qs) []) as [|p t] eqn:E; [reflexivity | exfalso].
    assert (In p (hf_prs (rev qs) [])) as Hp by (rewrite E; left; reflexivity).
    apply c20_in_hf_prs in Hp as [[]|Hp]. apply Exists_exists in Hp as (e & He & E4 & _).
    apply in_rev in He. exact (Nh e He E4). }
  assert (E : queued_prs qs = last_prs qs).
  { rewrite c20_queued_prs_eq, Hf. apply filter_all. reflexivity. }
  split; [|split; [exact (c20_queued_prs_iff qs Co)|]]; rewrite E.
  - destruct (c20_last_prs_cases qs) as [->|(lastq & Hl & ->)]; [constructor|].
    apply NoDup_rev, c20_nodupN_spec.
    unfold queues_coherent in Co. apply andb_true_iff in Co as [Nd _]. rewrite forallb_forall in Nd. exact (Nd _ Hl).
  - intros e p1 p2 He B. destruct (c20_coherent_last qs e Co He (Nh e He)) as (lastq & -> & Sub).
    apply c20_before_rev. exact (c20_subseq_before _ _ _ _ Sub B).
Qed.

Lemma c20_prefixes_pinned : nth_prefix 0 = "q/" /\ nth_prefix 1 = "q/".
Proof. split; reflexivity. Qed.

Lemma c20_classify_all_nil ns : classify_all ns = Some [] -> ns = [].
Proof.
  destruct ns as [|n t]; [reflexivity|]. cbn [classify_all]. destruct (classify n); [|discriminate].
  destruct (classify_all t); discriminate.
Qed.

Definition qnames (heads : list (string * cid)) : list string := queue_names heads "q/".

Lemma c20_qnames_in heads n : In n (qnames heads) <-> In n (map fst heads) /\ String.prefix "q/" n = true.
Proof. unfold qnames, queue_names. apply filter_In. Qed.

(* delete_queues is the rebuild of an empty queue collection: one case analysis serves both jobs *)
Lemma c20_delete_queues_rebuild fails uq heads : delete_queues fails uq heads = rebuild_queues fails 0 uq heads [].
Proof. reflexivity. Qed.

Lemma c20_rebuild_cases fails op uq heads qs ms o :
  rebuild_queues fails op uq heads qs = (ms, o) ->
  (ms = [] /\ o = JobSuccess /\ uq = true /\ qnames heads = []) \/
  (ms = MPushAllDel (qnames heads) :: map MEnqueue (queued_prs qs) /\ o = JobSuccess /\ uq = true) \/
  (ms = [] /\ (o = NotMyJob /\ uq = false \/ exists c, o = Crashed c)).
Proof.
  unfold rebuild_queues. change (queue_names heads (nth_prefix 0)) with (qnames heads).
  assert (Crash : forall c, ([], Crashed c) = (ms, o) -> ms = [] /\ (o = NotMyJob /\ uq = false \/ exists c, o = Crashed c)).
  { intros c [= <- <-]. split; [reflexivity | right; exists c; reflexivity]. }
  destruct uq; cbn [negb]; [|intros [= <- <-]; auto 7]. cbv zeta.
  destruct (classify_all (qnames heads)) as [[|first rest]|] eqn:CA.
  - intros [= <- <-]. left. repeat split. exact (c20_classify_all_nil _ CA).
  - destruct (leave_queues heads first) as [c|]; [intro H; right; right; exact (Crash _ H)|].
    destruct (fails op); [intro H; right; right; exact (Crash _ H)|].
    intros [= <- <-]. right. left. auto.
  - intro H. right. right. exact (Crash _ H).
Qed.

Lemma c20_apply_pushalldel r :
  only_queues_removed r (apply_mutation r (MPushAllDel (qnames (r_heads r)))) /\
  (forall h, In h (r_heads (apply_mutation r (MPushAllDel (qnames (r_heads r))))) -> ~ is_queue_name (fst h)).
Proof.
  cbn [apply_mutation r_heads r_tags r_st]. split; [split; [reflexivity|]; split; [reflexivity|]; split|].
  - intros h Hh. apply filter_In in Hh. tauto.
  - intros h Hh Nq. apply filter_In. split; [exact Hh|].
    destruct (mem_str (fst h) (qnames (r_heads r))) eqn:M; [|reflexivity].
    apply mem_str_In in M. apply c20_qnames_in in M as [_ P]. contradiction.
  - intros h Hh Q. apply filter_In in Hh as [Hin M].
    assert (In (fst h) (qnames (r_heads r))) as Hq.
    { apply c20_qnames_in. split; [apply in_map; exact Hin | exact Q]. }
    apply mem_str_In in Hq. rewrite Hq in M. discriminate M.
Qed.

Lemma c20_apply_enqueues r ps : fold_left apply_mutation (map MEnqueue ps) r = r.
Proof. induction ps as [|p t IH]; [reflexivity | exact IH]. Qed.

Lemma c20_enqueued_map ps : enqueued (map MEnqueue ps) = ps.
Proof. induction ps as [|p t IH]; [reflexivity | cbn; f_equal; exact IH]. Qed.

(* without a q/ head the job succeeds at once and re-submits nothing, whatever is queued *)
Theorem c20_queues_rebuild_proof fails op uq r qs ms o :
  rebuild_queues fails op uq (r_heads r) qs = (ms, o) ->
  let r' := apply_mutations r ms in
  only_queues_removed r r' /\
  (o = JobSuccess ->
     uq = true /\ (forall h, In h (r_heads r') -> ~ is_queue_name (fst h)) /\
     (enqueued ms = queued_prs qs \/ (qnames (r_heads r) = [] /\ enqueued ms = []))) /\
  (o <> JobSuccess -> ms = []).
Proof.
  intro H. cbv zeta.
  destruct (c20_rebuild_cases _ _ _ _ _ _ _ H) as [(-> & -> & -> & Hq)|[(-> & -> & ->)|(-> & Ho)]].
  - split; [apply c20_only_queues_refl|]. split; [|intros []; reflexivity]. intros _. split; [reflexivity|].
    split; [|right; split; [exact Hq | reflexivity]]. intros h Hh Q.
    assert (In (fst h) (qnames (r_heads r))) as Hin by (apply c20_qnames_in; split; [apply in_map; exact Hh | exact Q]).
    rewrite Hq in Hin. destruct Hin.
  - cbn [apply_mutations fold_left]. rewrite c20_apply_enqueues. destruct (c20_apply_pushalldel r) as [O N].
    split; [exact O|]. split; [|intros []; reflexivity]. intros _. split; [reflexivity|]. split; [exact N|].
    left. exact (c20_enqueued_map _).
  - split; [apply c20_only_queues_refl|]. split; [|reflexivity].
    intros ->. destruct Ho as [[E _]|[c E]]; discriminate E.
Qed.

Definition quiet (ms : list mutation) (o : outcome) : Prop := ms = [] /\ o <> JobSuccess.

Lemma c20_quiet_nil x ms o (P : Prop) : x <> JobSuccess -> ([], x) = (ms, o) -> quiet ms o \/ P.
Proof. intros N [= <- <-]. left. split; [reflexivity | exact N]. Qed.

Lemma c20_refused_not_success o : refused o -> o <> JobSuccess.
Proof. intros [->|[->|[w ->]]]; discriminate. Qed.

Lemma c20_branching_point_quiet r d devs bf res :
  branching_point r d devs bf = inl res -> quiet (fst res) (snd res).
Proof.
  assert (Q : forall x, x <> JobSuccess -> @inl result (option cid) ([], x) = inl res -> quiet (fst res) (snd res)).
  { intros x N [= <-]. split; [reflexivity | exact N]. }
  unfold branching_point. destruct bf as [|n|c].
  - destruct (d_kind d).
    + destruct (auto_dev_point _ _); [discriminate | apply Q; discriminate].
    + destruct (existsb _ _); [discriminate | apply Q; discriminate].
    + discriminate.
  - destruct (last_opt devs); [|apply Q; discriminate].
    destruct (resolve r _); [|apply Q; discriminate].
    destruct (anc _ _ _); [discriminate | apply Q; discriminate].
  - destruct (last_opt devs); [|apply Q; discriminate].
    destruct (resolve r _); [|apply Q; discriminate].
    destruct (anc _ _ _); [discriminate | apply Q; discriminate].
Qed.

Lemma c20_queued_refusal_quiet uq d devs qs res :
  queued_refusal uq d devs qs = Some res -> quiet (fst res) (snd res).
Proof.
  unfold queued_refusal. destruct (uq && dkind_eqb (d_kind d) KDev); [|discriminate].
  destruct (last_opt devs); [destruct (_ && _); [|discriminate]|]; intros [= <-]; (split; [reflexivity | discriminate]).
Qed.

Lemma c20_queued_refusal_none uq d devs qs : queued_refusal uq d devs qs = None ->
  uq = true -> d_kind d = KDev ->
  exists lastd, last_opt devs = Some lastd /\
    (key_lt (dkey d) (dkey (fst (fst lastd))) = true -> queued_prs qs = []).
Proof.
  unfold queued_refusal. intros H -> K. rewrite K in H. cbn in H.
  destruct (last_opt devs) as [lastd|]; [|discriminate H]. exists lastd. split; [reflexivity|].
  intro L. rewrite L in H. cbn in H. destruct (queued_prs qs); [reflexivity | discriminate H].
Qed.

(* the tag create-branch looks for is the tag delete-branch leaves: the two suffixes of Generated/Facts_C20.v agree *)
Lemma c20_archive_tag_absent tags d :
  mem_str (create_archive_tag tags d) tags = false -> ~ In (archive_tag d) tags.
Proof.
  unfold create_archive_tag, archive_tag. change create_archive_hotfix_suffix with archive_hotfix_suffix.
  intros H Hin. apply mem_str_In in Hin. destruct (d_kind d); cbn [dkind_eqb andb] in H; try congruence.
  destruct (mem_str (d_version d ++ archive_hotfix_suffix) tags) eqn:M; congruence.
Qed.

Definition create_pushed (fails : nat -> bool) (uq : bool) (r : repo) (qs : list qentry) (name : string)
           (ms : list mutation) (o : outcome) : Prop :=
  exists d c tail, parse_dest name = Some d /\ ~ In (archive_tag d) (tag_names r) /\
    conforms (r_st r) (add_head (r_heads r) name c) (tag_names r) /\ ms = MPushNew name c :: tail /\
    (tail = [] /\ o = JobSuccess /\ (uq = false \/ d_kind d <> KDev) \/
     uq = true /\
     (exists lastd, last_opt (dev_branches (dests (r_heads r))) = Some lastd /\
        (key_lt (dkey d) (dkey (fst (fst lastd))) = true -> queued_prs qs = [])) /\
     rebuild_queues fails 1 true (add_head (r_heads r) name c) qs = (tail, o)).

(* the conclusion is a defined predicate so that the goal stays small while the guards are passed *)
Lemma c20_create_ends fails uq r qs name bf ms o :
  create_branch fails uq r qs name bf = (ms, o) -> quiet ms o \/ create_pushed fails uq r qs name ms o.
Proof.
  unfold create_branch.
  destruct (mem_str name (head_names r)); [apply c20_quiet_nil; discriminate|].
  destruct (classify name) as [a|] eqn:Cl; [|apply c20_quiet_nil; discriminate].
  destruct (dest_of a) as [d|] eqn:De; [|apply c20_quiet_nil; discriminate].
  assert (P : parse_dest name = Some d) by (unfold parse_dest; rewrite Cl; exact De).
  destruct (create_requires_canonical && _); [apply c20_quiet_nil; discriminate|].
  destruct (mem_str (create_archive_tag (tag_names r) d) (tag_names r)) eqn:Tg; [apply c20_quiet_nil; discriminate|].
  apply c20_archive_tag_absent in Tg.
  destruct (build_error _ _); [apply c20_quiet_nil; discriminate|]. cbv zeta.
  destruct (branching_point r d _ bf) as [res|pt] eqn:BP; [intros ->; left; exact (c20_branching_point_quiet _ _ _ _ _ BP)|].
  destruct (queued_refusal uq d _ qs) as [res|] eqn:QR;
    [intros ->; left; exact (c20_queued_refusal_quiet _ _ _ _ _ QR)|].
  destruct pt as [c|]; [|apply c20_quiet_nil; discriminate].
  destruct (conformance_error _ _ _) eqn:CE; [apply c20_quiet_nil; discriminate|]. apply c20_conformance_none in CE.
  destruct (fails 0); [apply c20_quiet_nil; discriminate|].
  destruct (negb uq || negb (dkind_eqb (d_kind d) KDev)) eqn:Ch; intros [= <- <-]; right; exists d, c.
  - exists []. split; [exact P|]. split; [exact Tg|]. split; [exact CE|]. split; [reflexivity|].
    left. split; [reflexivity|]. split; [reflexivity|].
    destruct uq; [right; intro K; rewrite K in Ch; discriminate Ch | left; reflexivity].
  - eexists. split; [exact P|]. split; [exact Tg|]. split; [exact CE|]. split; [reflexivity|]. right.
    apply orb_false_iff in Ch as [Uq K]. apply negb_false_iff in Uq, K. apply c20_dkind_eqb_eq in K.
    split; [exact Uq|]. split; [exact (c20_queued_refusal_none _ _ _ _ QR Uq K) | apply surjective_pairing].
Qed.

Lemma c20_no_intermediate r qs d lastd :
  queues_coherent qs = true -> queues_below_last (r_heads r) qs = true ->
  last_opt (dev_branches (dests (r_heads r))) = Some lastd ->
  (key_lt (dkey d) (dkey (fst (fst lastd))) = true -> queued_prs qs = []) ->
  ~ needs_intermediate qs (dkey d).
Proof.
  intros Co Bl La Hq (e1 & e2 & p & _ & H2 & _ & N2 & _ & P2 & _ & L2).
  unfold hotfix_queue in N2. apply Nat.eqb_neq in N2.
  unfold queues_below_last in Bl. rewrite La, forallb_forall in Bl. specialize (Bl e2 H2).
  rewrite N2 in Bl. cbn [orb] in Bl. apply negb_true_iff in Bl. fold (qkey e2) in Bl.
  destruct (key_lt (dkey d) (dkey (fst (fst lastd)))) eqn:Lk.
  - assert (In p (queued_prs qs)) as Hp by (apply (c20_queued_prs_iff qs Co); exists e2; auto).
    rewrite (Hq eq_refl) in Hp. destruct Hp.
  - (* last <= new < q2 <= last *)
    destruct (c20_key_lt_false _ _ Lk) as [E|T]; [rewrite E in L2 | apply (c20_line_before_trans _ _ _ T) in L2];
      apply c20_key_lt_spec in L2; congruence.
Qed.

(* the hypotheses on the view; the correspondence run evaluates them on every real state *)
Definition view_ok (uq : bool) (r : repo) (qs : list qentry) : Prop :=
  wf_store (r_st r) /\ queues_coherent qs = true /\ queues_below_last (r_heads r) qs = true /\
  (uq = false -> qs = []).

Theorem c20_create_proof :
  forall fails uq r qs name bf ms, view_ok uq r qs ->
    create_branch fails uq r qs name bf = (ms, JobSuccess) ->
    let r' := apply_mutations r ms in
    exists d c, parse_dest name = Some d /\ In (name, c) (r_heads r') /\
      cascade_rules r' /\ incl_names r' /\ ~ archived archive_tag r d /\
      (d_kind d = KDev -> ~ needs_intermediate qs (dkey d)).
Proof.
  intros fails uq r qs name bf ms (W & Co & Bl & Nq) H.
  destruct (c20_create_ends _ _ _ _ _ _ _ _ H) as [[_ No]|(d & c & tail & P & Tg & Cf & -> & T)]; [contradiction|].
  (* the remote after the push of the new branch, then after the chained rebuild *)
  set (r1 := apply_mutation r (MPushNew name c)).
  destruct (c20_validate_sound_proof r1 W Cf) as [I R].
  assert (O : only_queues_removed r1 (apply_mutations r1 tail) /\
              (d_kind d = KDev -> ~ needs_intermediate qs (dkey d))).
  { destruct T as [(-> & _ & Ch)|(-> & (lastd & La & Hq) & Rb)].
    - split; [apply c20_only_queues_refl|]. intro K. destruct Ch as [E|Nk]; [|contradiction].
      rewrite (Nq E). intros (e1 & _ & _ & [] & _).
    - split; [|intros _; exact (c20_no_intermediate r qs d lastd Co Bl La Hq)].
      exact (proj1 (c20_queues_rebuild_proof _ _ _ r1 _ _ _ Rb)). }
  destruct O as [O NI]. destruct (c20_only_queues_keeps _ _ O) as (KI & KR & Keep).
  exists d, c. split; [exact P|]. split; [exact (Keep (name, c) d (in_elt _ _ _) P)|].
  split; [exact (KR R)|]. split; [exact (KI I)|]. split; [exact Tg | exact NI].
Qed.

Theorem c20_create_not_success_proof fails uq r qs name bf ms o :
  create_branch fails uq r qs name bf = (ms, o) -> o <> JobSuccess ->
  ms = [] \/ (exists c cr, ms = [MPushNew name c] /\ o = Crashed cr /\ uq = true).
Proof.
  intros H No.
  destruct (c20_create_ends _ _ _ _ _ _ _ _ H) as [[-> _]|(d & c & tail & _ & _ & _ & -> & T)]; [left; reflexivity | right].
  destruct T as [(_ & E & _)|(-> & _ & Rb)]; [contradiction|].
  destruct (c20_rebuild_cases _ _ _ _ _ _ _ Rb) as [(_ & E & _)|[(_ & E & _)|(-> & [[_ E]|[cr ->]])]];
    try contradiction; try discriminate E. exists c, cr. auto.
Qed.

Definition never_fails (fails : nat -> bool) : Prop := forall i, fails i = false.

(* how delete-branch ends once its guards are passed, from the archive tag on: with success, tagging unless the tag
   is already on the tip (a previous run pushed it and was refused the deletion); or with a failure, which without
   a refused remote operation means that the tag exists on another commit *)
Definition delete_tail_end (fails : nat -> bool) (r : repo) (name tag : string) (tip : cid)
           (rest : list mutation) (o : outcome) : Prop :=
  (o = JobSuccess /\ (rest = [MPushTag tag tip; MDelete name] \/ rest = [MDelete name] /\ In (tag, tip) (r_tags r))) \/
  ((exists why, o = JobFailure why) /\ (rest = [] \/ rest = [MPushTag tag tip]) /\
   (never_fails fails -> rest = [] /\ already_archived r tag tip = false /\ In tag (tag_names r))).

Lemma c20_already_archived_in r tag tip : already_archived r tag tip = true -> In (tag, tip) (r_tags r).
Proof.
  unfold already_archived. destruct (assoc_str tag (r_tags r)) as [c|] eqn:E; [|discriminate].
  intro H. apply Nat.eqb_eq in H. subst c. exact (c20_assoc_str_in _ _ _ E).
Qed.

(* [m0] is what was pushed before and [op] the index of the next remote operation *)
Lemma c20_delete_tail (fails : nat -> bool) op r name tag tip m0 ms o :
  (if already_archived r tag tip then
     if fails op then (m0, JobFailure RRemoveFailed) else (m0 ++ [MDelete name], JobSuccess)
   else if mem_str tag (tag_names r) then (m0, JobFailure RTagFailed)
   else if fails op then (m0, JobFailure RTagFailed)
   else if fails (S op) then (m0 ++ [MPushTag tag tip], JobFailure RRemoveFailed)
   else (m0 ++ [MPushTag tag tip; MDelete name], JobSuccess)) = (ms, o) ->
  exists rest, ms = m0 ++ rest /\ delete_tail_end fails r name tag tip rest o.
Proof.
  assert (Bad : forall i why rest, fails i = true -> rest = [] \/ rest = [MPushTag tag tip] ->
                  delete_tail_end fails r name tag tip rest (JobFailure why)).
  { intros i why rest Fi Hr. right. split; [exists why; reflexivity|]. split; [exact Hr|].
    intro NF. rewrite NF in Fi. discriminate Fi. }
  destruct (already_archived r tag tip) eqn:Res.
  - destruct (fails op) eqn:F; intros [= <- <-].
    + exists []. split; [symmetry; apply app_nil_r | exact (Bad _ _ _ F (or_introl eq_refl))].
    + exists [MDelete name]. split; [reflexivity|]. left. split; [reflexivity|]. right.
      split; [reflexivity | exact (c20_already_archived_in _ _ _ Res)].
  - destruct (mem_str tag (tag_names r)) eqn:At; [|destruct (fails op) eqn:F; [|destruct (fails (S op)) eqn:F2]];
      intros [= <- <-].
    + exists []. split; [symmetry; apply app_nil_r|]. right. split; [eexists; reflexivity|]. split; [left; reflexivity|].
      intros _. split; [reflexivity|]. split; [exact Res | apply mem_str_In; exact At].
    + exists []. split; [symmetry; apply app_nil_r | exact (Bad _ _ _ F (or_introl eq_refl))].
    + exists [MPushTag tag tip]. split; [reflexivity | exact (Bad _ _ _ F2 (or_intror eq_refl))].
    + exists [MPushTag tag tip; MDelete name]. split; [reflexivity|]. left. split; [reflexivity | left; reflexivity].
Qed.

Definition delete_late (fails : nat -> bool) (uq : bool) (r : repo) (qs : list qentry) (name : string)
           (ms : list mutation) (o : outcome) : Prop :=
  exists d tip m0 rest, parse_dest name = Some d /\ assoc_str name (r_heads r) = Some tip /\
    (d_kind d <> KHotfix -> already_archived r (archive_tag d) tip = false ->
       mem_str (d_version d) (tag_names r) = false) /\
    (d_kind d = KDev -> existsb (stab_test d) (head_names r) = false) /\
    (uq = true -> has_version_queued_prs d qs = false) /\
    (m0 = [] \/ m0 = [MDelete ("q/" ++ d_version d)%string] /\ In ("q/" ++ d_version d)%string (head_names r)) /\
    ms = m0 ++ rest /\ delete_tail_end fails r name (archive_tag d) tip rest o.

Lemma c20_delete_ends fails uq r qs name ms o :
  delete_branch fails uq r qs name = (ms, o) -> quiet ms o \/ delete_late fails uq r qs name ms o.
Proof.
  unfold delete_branch.
  destruct (classify name) as [a|] eqn:Cl; [|apply c20_quiet_nil; discriminate].
  destruct (dest_of a) as [d|] eqn:De; [|apply c20_quiet_nil; discriminate].
  assert (P : parse_dest name = Some d) by (unfold parse_dest; rewrite Cl; exact De).
  destruct (assoc_str name (r_heads r)) as [tip|] eqn:Ex; [|apply c20_quiet_nil; discriminate]. cbv zeta.
  destruct (negb (dkind_eqb (d_kind d) KHotfix) && negb (already_archived r (archive_tag d) tip) &&
            mem_str (d_version d) (tag_names r)) eqn:Tg; [apply c20_quiet_nil; discriminate|].
  destruct (dkind_eqb (d_kind d) KDev && existsb _ (head_names r)) eqn:St; [apply c20_quiet_nil; discriminate|].
  destruct (uq && has_version_queued_prs d qs) eqn:Qd; [apply c20_quiet_nil; discriminate|].
  assert (HTg : d_kind d <> KHotfix -> already_archived r (archive_tag d) tip = false ->
                mem_str (d_version d) (tag_names r) = false).
  { intros K Res. rewrite Res in Tg. destruct (d_kind d); [exact Tg.. | contradiction]. }
  assert (HSt : d_kind d = KDev -> existsb (stab_test d) (head_names r) = false) by (intro K; rewrite K in St; exact St).
  assert (HQd : uq = true -> has_version_queued_prs d qs = false) by (intros ->; exact Qd).
  destruct (uq && mem_str _ (head_names r)) eqn:Dq; cbn [andb].
  - destruct (fails 0); [apply c20_quiet_nil; discriminate|]. intro H. apply andb_true_iff in Dq as [_ Mq]. apply mem_str_In in Mq.
    destruct (c20_delete_tail fails 1 r name _ tip _ ms o H) as (rest & E & TF).
    right. exists d, tip, [MDelete ("q/" ++ d_version d)%string], rest. repeat split; auto.
  - intro H. destruct (c20_delete_tail fails 0 r name _ tip _ ms o H) as (rest & E & TF).
    right. exists d, tip, [], rest. repeat split; auto.
Qed.

Lemma c20_remove_head_names n heads : ~ In n (map fst (remove_head n heads)).
Proof.
  unfold remove_head. intro H. apply in_map_iff in H as [[n' c] [E Hin]]. cbn in E. subst n'.
  apply filter_In in Hin as [_ F]. cbn in F. rewrite String.eqb_refl in F. discriminate F.
Qed.

Lemma c20_has_version_spec d qs : has_version_queued_prs d qs = false -> ~ has_queued_prs qs d.
Proof.
  intros H (e & p & He & (Ma & Mi & Q) & _).
  assert (T : has_version_queued_prs d qs = true); [|congruence].
  unfold has_version_queued_prs. destruct (d_kind d); apply existsb_exists; exists e; (split; [exact He|]).
  - rewrite Q, Ma, Mi, N.eqb_refl, c20_optN_eqb_refl. reflexivity.
  - destruct Q as [Q Mc]. rewrite Q, Ma, Mi, Mc, N.eqb_refl, !c20_optN_eqb_refl. reflexivity.
  - destruct Q as [Q Mc]. rewrite Q, Ma, Mi, Mc, N.eqb_refl, !c20_optN_eqb_refl. reflexivity.
Qed.

(* the numeric test sees every stabilization branch of the line *)
Lemma c20_stab_test_live r d : existsb (stab_test d) (head_names r) = false -> ~ live_stabilization r d.
Proof.
  intros H (n & c & d' & Hin & P & K & E).
  assert (T : existsb (stab_test d) (head_names r) = true); [|congruence].
  apply existsb_exists. exists n. split; [apply in_map_iff; exists (n, c); split; [reflexivity | exact Hin]|].
  unfold stab_test, is_stabilization_of. change delete_stab_numeric with true. rewrite P, K. injection E as -> ->.
  rewrite N.eqb_refl, c20_optN_eqb_refl. apply orb_true_r.
Qed.

Theorem c20_delete_proof :
  forall fails uq r qs name ms, (uq = false -> qs = []) ->
    delete_branch fails uq r qs name = (ms, JobSuccess) ->
    let r' := apply_mutations r ms in
    exists d tip, parse_dest name = Some d /\ assoc_str name (r_heads r) = Some tip /\
      In (archive_tag d, tip) (r_tags r') /\ ~ In name (head_names r') /\
      ~ has_queued_prs qs d /\ (d_kind d = KDev -> ~ live_stabilization r d).
Proof.
  intros fails uq r qs name ms Nq H.
  destruct (c20_delete_ends _ _ _ _ _ _ _ H)
    as [[_ No]|(d & tip & m0 & rest & P & Ex & _ & HSt & HQd & Hm0 & -> & TF)]; [contradiction|].
  destruct TF as [[_ Hr]|((why & E) & _)]; [|discriminate E].
  exists d, tip. split; [exact P|]. split; [exact Ex|].
  assert (In (archive_tag d, tip) (r_tags (apply_mutations r (m0 ++ rest))) /\
          ~ In name (head_names (apply_mutations r (m0 ++ rest)))) as [T Hd].
  { (* the q/<version> deletion or not, then tag and delete or, resuming, delete only *)
    destruct Hm0 as [->|[-> _]], Hr as [->|[-> Res]];
      cbn [app apply_mutations fold_left apply_mutation r_tags r_heads head_names];
      (split; [|apply c20_remove_head_names]).
    - apply in_elt.
    - exact Res.
    - apply in_elt.
    - exact Res. }
  split; [exact T|]. split; [exact Hd|]. split; [|intro K; exact (c20_stab_test_live r d (HSt K))].
  destruct uq; [exact (c20_has_version_spec _ _ (HQd eq_refl))|].
  rewrite (Nq eq_refl). intros (e & _ & [] & _).
Qed.

Theorem c20_refuse_delete_proof fails uq r qs name ms o :
  delete_branch fails uq r qs name = (ms, o) -> refused o ->
  exists d tip, (ms = [] \/ parse_dest name = Some d /\ assoc_str name (r_heads r) = Some tip) /\
    let q := MDelete ("q/" ++ d_version d)%string in
    let t := MPushTag (archive_tag d) tip in
    (ms = [] \/ ms = [q] \/ ms = [t] \/ ms = [q; t]) /\
    (* the destination branch itself is never deleted by a refusing job *)
    ~ In (MDelete name) ms /\
    (* without a refused remote operation only the q/<version> deletion can have happened, and only for a
       hotfix branch whose archive tag already exists while a branch q/<x.y.z> is there *)
    (never_fails fails -> ms = [] \/
       (ms = [q] /\ d_kind d = KHotfix /\ In (archive_tag d) (tag_names r) /\
        In ("q/" ++ d_version d)%string (head_names r))).
Proof.
  intros H Ro.
  destruct (c20_delete_ends _ _ _ _ _ _ _ H)
    as [[-> _]|(d & tip & m0 & rest & P & Ex & HTg & _ & _ & Hm0 & -> & TF)].
  - (* nothing was pushed and there may be no destination: any witnesses do *)
    exists (mkDest KDev 0 None None ""), 0%nat. cbv zeta. split; [left; reflexivity|].
    split; [left; reflexivity|]. split; [intros []|]. intros _. left. reflexivity.
  - exists d, tip. cbv zeta. split; [right; split; assumption|].
    destruct TF as [[E _]|(_ & Hr & NF)]; [destruct (c20_refused_not_success _ Ro E)|].
    assert (Nn : MDelete ("q/" ++ d_version d)%string <> MDelete name).
    { intro E. assert (E' : name = ("q/" ++ d_version d)%string) by congruence.
      rewrite E', c20_queue_name_not_dest in P. discriminate P. }
    split; [|split].
    + destruct Hm0 as [->|[-> _]], Hr as [->| ->]; cbn [app]; auto.
    + intro I. apply in_app_or in I as [I|I].
      * destruct Hm0 as [->|[-> _]]; [destruct I | destruct I as [E|[]]; exact (Nn E)].
      * destruct Hr as [->| ->]; [destruct I | destruct I as [E|[]]; discriminate E].
    + intro F. destruct (NF F) as (-> & Res & At). rewrite app_nil_r.
      destruct Hm0 as [->|[-> Mq]]; [left; reflexivity | right].
      split; [reflexivity|]. split; [|split; assumption].
      destruct (d_kind d) eqn:K; [exfalso | exfalso | reflexivity];
        apply mem_str_In in At; unfold archive_tag in At; rewrite K, HTg in At by (discriminate || exact Res);
        discriminate At.
Qed.

Lemma c20_lookup_combine (l : list cid) : forall s i,
  lookup (combine (seq s (List.length l)) l) (s + i) = nth_error l i.
Proof.
  induction l as [|x t IH]; intros s i; cbn [List.length seq combine lookup]; [destruct i; reflexivity|].
  destruct i as [|i]; [rewrite Nat.add_0_r, Nat.eqb_refl; reflexivity|].
  rewrite (proj2 (Nat.eqb_neq s (s + S i))) by lia. rewrite <- Nat.add_succ_comm. apply IH.
Qed.

Lemma c20_clone_lookup r i : lookup (refs (clone_of r)) i = option_map snd (nth_error (r_heads r) i).
Proof.
  unfold clone_of. cbn [refs]. rewrite <- (map_length snd (r_heads r)), <- nth_error_map.
  exact (c20_lookup_combine _ 0 i).
Qed.

Theorem c20_incl_clone_proof r : incl_names r <-> Incl (later_ids r) (clone_of r).
Proof.
  split.
  - intros I a b x y (h1 & h2 & d1 & d2 & N1 & N2 & P1 & P2 & L) La Lb.
    rewrite c20_clone_lookup in La, Lb. rewrite N1 in La. rewrite N2 in Lb. cbn in La, Lb.
    injection La as <-. injection Lb as <-. destruct h1 as [n1 c1], h2 as [n2 c2].
    exact (I n1 c1 d1 n2 c2 d2 (nth_error_In _ _ N1) (nth_error_In _ _ N2) P1 P2 L).
  - intros I n1 c1 d1 n2 c2 d2 H1 H2 P1 P2 L.
    apply In_nth_error in H1 as [i N1]. apply In_nth_error in H2 as [j N2].
    apply (I i j c1 c2).
    + exists (n1, c1), (n2, c2), d1, d2. auto.
    + rewrite c20_clone_lookup, N1. reflexivity.
    + rewrite c20_clone_lookup, N2. reflexivity.
Qed.

Theorem c20_facts_pinned_proof :
  archive_hotfix_suffix = ".archived_hotfix_branch" /\ hotfix_start_suffix = ".0" /\
  stab_prefix_format = "stabilization/%s" /\ queue_name_format = "q/%s" /\
  supporting_dev_format = "development/%s.%s" /\ create_archive_hotfix_suffix = archive_hotfix_suffix /\
  queue_destination_formats = ["hotfix/%d.%d.%d"; "stabilization/%s"; "development/%s"] /\
  delete_stab_numeric = true /\
  queue_scan_prefixes = ["q/"; "q/"] /\
  raise_sites =
    [("create_branch", ["NothingToDo"; "JobFailure"; "JobFailure"; "JobFailure"; "JobFailure"; "JobFailure";
                        "JobFailure"; "JobFailure"; "JobFailure"; "JobSuccess"]);
     ("delete_branch", ["JobFailure"; "JobFailure"; "JobFailure"; "NothingToDo"; "JobFailure"; "JobFailure";
                        "JobFailure"; "JobFailure"; "JobSuccess"]);
     ("delete_queues", ["NotMyJob"; "JobSuccess"; "JobSuccess"]);
     ("rebuild_queues", ["NotMyJob"; "JobSuccess"; "JobSuccess"]);
     ("force_merge_queues", ["NotMyJob"])] /\
  outcome_kinds = [("NothingToDo", "silent"); ("JobFailure", "silent"); ("JobSuccess", "silent");
                   ("NotMyJob", "silent")].
Proof.
  (* the two tables get a name first: the conjunctions of the proof term then repeat a variable, not the literals *)
  set (rs := [_; _; _; _; _] : list (string * list string)). set (ok := [_; _; _; _] : list (string * string)).
  repeat split; reflexivity.
Qed.

(* the exception class of the [i]th raise statement of a handler, from Generated/Facts_C20.raise_sites *)
Definition site_class (handler : string) (i : nat) : option string :=
  match assoc handler raise_sites with Some l => nth_error l i | None => None end.

(* the former witness of F11 (the archive tag of a hotfix branch was not the tag create-branch looked for):
   now refused *)
Definition c20_f11_repo : repo :=
  mkRepo [mkCommit [] false]
         [("development/4.3", 0%nat)]
         [("4.3.17.0", 0%nat); ("4.3.17.archived_hotfix_branch", 0%nat)].

Lemma c20_wf_single : wf_store [mkCommit [] false].
Proof. intros i c H p Hp. destruct i as [|[|i]]; cbn in H; try discriminate H. injection H as <-. destruct Hp. Qed.

Example c20_f11_refused :
  create_branch no_fault false c20_f11_repo [] "hotfix/4.3.17" BNone = ([], JobFailure RArchiveTag) /\
  create_branch no_fault false (mkRepo (r_st c20_f11_repo) (r_heads c20_f11_repo) [("4.3.17.0", 0%nat)]) []
                "hotfix/4.3.17" BNone = ([MPushNew "hotfix/4.3.17" 0%nat], JobSuccess).
Proof. vm_compute. split; reflexivity. Qed.

(* the former witness: a stabilization branch whose name carries a leading zero was not seen by the string test *)
Definition c20_zero_repo : repo :=
  mkRepo [mkCommit [] false] [("development/4.3", 0%nat); ("stabilization/04.3.0", 0%nat)] [].

Example c20_zero_refused :
  delete_branch no_fault false c20_zero_repo [] "development/4.3" = ([], JobFailure RStabilization) /\
  delete_branch no_fault false c20_zero_repo [] "stabilization/04.3.0" =
    ([MPushTag "04.3.0" 0%nat; MDelete "stabilization/04.3.0"], JobSuccess).
Proof. vm_compute. split; reflexivity. Qed.

(* development/4.3 <- development/5.1 <- development/10.0 with a stabilization/5.1.4 and the release tag 5.1.3;
   pull request 7 queued on 5.1 and 10.0 *)
Definition c20_ex_repo : repo :=
  mkRepo [mkCommit [] false; mkCommit [0%nat] false; mkCommit [1%nat] false; mkCommit [2%nat] false;
          mkCommit [3%nat] false; mkCommit [3%nat] true; mkCommit [5%nat; 4%nat] true]
         [("development/10.0", 4%nat); ("development/4.3", 1%nat); ("development/5.1", 3%nat);
          ("q/10.0", 6%nat); ("q/5.1", 5%nat); ("q/w/7/10.0/bugfix/x", 6%nat); ("q/w/7/5.1/bugfix/x", 5%nat);
          ("stabilization/5.1.4", 2%nat)]
         [("5.1.3", 1%nat)].
Definition c20_ex_queues : list qentry :=
  [mkQ 5 (Some 1%N) None None true [7%N]; mkQ 10 (Some 0%N) None None true [7%N]].

Example c20_ex_create_newest :
  create_branch no_fault true c20_ex_repo c20_ex_queues "development/11.0" BNone =
  ([MPushNew "development/11.0" 4%nat;
    MPushAllDel ["q/10.0"; "q/5.1"; "q/w/7/10.0/bugfix/x"; "q/w/7/5.1/bugfix/x"]; MEnqueue 7%N], JobSuccess).
Proof. vm_compute. reflexivity. Qed.

Example c20_ex_create_between_refused :
  create_branch no_fault true c20_ex_repo c20_ex_queues "development/6.0" BNone = ([], JobFailure RQueuedData) /\
  create_branch no_fault false c20_ex_repo [] "development/6.0" BNone = ([MPushNew "development/6.0" 3%nat], JobSuccess) /\
  create_branch no_fault false c20_ex_repo [] "development/6.0" (BCommit (Some 4%nat)) =
    ([MPushNew "development/6.0" 4%nat], JobSuccess) /\
  create_branch no_fault false c20_ex_repo [] "development/6.0" (BCommit (Some 1%nat)) =
    ([], JobFailure (RNotConform DevBranchesNotSelfContained)) /\
  create_branch no_fault false c20_ex_repo [] "stabilization/4.3.0" BNone =
    ([MPushNew "stabilization/4.3.0" 1%nat], JobSuccess) /\
  create_branch no_fault false c20_ex_repo [] "stabilization/5.1.5" BNone =
    ([], JobFailure (RNotConform UnsupportedMultipleStabBranches)).
Proof. vm_compute. repeat split; reflexivity. Qed.

Example c20_ex_delete :
  delete_branch no_fault true c20_ex_repo c20_ex_queues "development/4.3" =
    ([MPushTag "4.3" 1%nat; MDelete "development/4.3"], JobSuccess) /\
  delete_branch no_fault true c20_ex_repo c20_ex_queues "development/5.1" = ([], JobFailure RStabilization) /\
  delete_branch no_fault true c20_ex_repo c20_ex_queues "development/10.0" = ([], JobFailure RQueuedData) /\
  delete_branch no_fault true c20_ex_repo c20_ex_queues "stabilization/5.1.4" =
    ([MPushTag "5.1.4" 2%nat; MDelete "stabilization/5.1.4"], JobSuccess).
Proof. vm_compute. repeat split; reflexivity. Qed.

Example c20_ex_view_ok : view_ok true c20_ex_repo c20_ex_queues /\ queues_cover_heads (r_heads c20_ex_repo) c20_ex_queues = true.
Proof.
  split; [|vm_compute; reflexivity]. split.
  - intros i c H p Hp. do 7 (destruct i as [|i]; [cbn in H; injection H as <-; cbn in Hp; intuition lia|]).
    destruct i; discriminate H.
  - split; [vm_compute; reflexivity|]. split; [vm_compute; reflexivity | discriminate].
Qed.

(* delete-branch resumed: the archive tag is already on the tip (an earlier run pushed it and was refused the
   deletion); a tag of that name on another commit still refuses *)
Example c20_ex_delete_resumes :
  let r1 := mkRepo (r_st c20_ex_repo) (r_heads c20_ex_repo) [("5.1.3", 1%nat); ("4.3", 1%nat)] in
  let r2 := mkRepo (r_st c20_ex_repo) (r_heads c20_ex_repo) [("5.1.3", 1%nat); ("4.3", 0%nat)] in
  delete_branch no_fault true r1 c20_ex_queues "development/4.3" = ([MDelete "development/4.3"], JobSuccess) /\
  delete_branch no_fault true r2 c20_ex_queues "development/4.3" = ([], JobFailure RArchiveTag) /\
  delete_branch (fun i => Nat.eqb i 1) true c20_ex_repo c20_ex_queues "development/4.3" =
    ([MPushTag "4.3" 1%nat], JobFailure RRemoveFailed).
Proof. vm_compute. repeat split; reflexivity. Qed.

Example c20_ex_canonical :
  canonical_version "4.3" = true /\ canonical_version "04.3" = false /\ canonical_version "10.0.0" = true /\
  canonical_version "4.3.017" = false.
Proof. vm_compute. repeat split; reflexivity. Qed.

Example c20_ex_rebuild_hotfix_first :
  rebuild_queues no_fault 0 true
    [("development/4.3", 1%nat); ("hotfix/4.3.17", 0%nat); ("q/4.3.17.1", 1%nat); ("q/w/1/4.3.17.1/bugfix/x", 1%nat)]
    [mkQ 4 (Some 3%N) (Some 17%N) (Some 1%N) true [1%N]] =
  ([MPushAllDel ["q/4.3.17.1"; "q/w/1/4.3.17.1/bugfix/x"]; MEnqueue 1%N], JobSuccess).
Proof. vm_compute. reflexivity. Qed.
