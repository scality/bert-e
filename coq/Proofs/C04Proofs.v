(* Proofs for C04: the model of check_approvals passes exactly when the specification says so, for
   every input (any lists of users, duplicates included, any integer counts).
   settings_valid (leaders <= peers, leaders <= len(project_leaders)) is NOT needed for the
   equivalence. Its second conjunct is the hypothesis of C04_leaders_reachable (Properties/C04.v: the
   leader conjunct can be met); C04_invalid_settings_block says what its failure costs.
   The early return of the code is taken exactly when the specification's [waivedb] holds (check_approvals_eq).
   Imported by Properties/C04.v and Properties/Pipeline.v (c04_check_approvals_iff_spec). *)
From Coq Require Import List String Bool NArith ZArith Lia.
Require Import BertE.Base.Lists BertE.Generated.Facts_C04 BertE.Model.Approvals BertE.Spec.C04Spec.
Import ListNotations.

Lemma credit_geb (b : bool) r : ((if b then r else 0) >=? r)%Z = b || (r <=? 0)%Z.
Proof. rewrite Z.geb_leb. destruct b; [apply Z.leb_refl | reflexivity]. Qed.

(* A changed flag / a removed option / a removed BYPASS_LIST entry changes Facts_C04.v and breaks
   one of these (and, through the value lemmas below, the main theorem). *)
Definition c04_flags (name : string) : option (bool * bool) := assoc name option_registry.

Lemma c04_facts_bypass_privileged :
  forall n, In n ["bypass_author_approval"; "bypass_peer_approval"; "bypass_leader_approval"]%string ->
  exists authored, c04_flags n = Some (true, authored).
Proof.
  intros n [<-|[<-|[<-|[]]]]; exists false; reflexivity.
Qed.

Lemma c04_facts_approve_authored : exists privileged, c04_flags "approve" = Some (privileged, true).
Proof. exists false. reflexivity. Qed.

Lemma c04_facts_unanimity_exists : exists flags, c04_flags "unanimity" = Some flags.
Proof. exists (false, false). reflexivity. Qed.

Lemma c04_facts_bypass_list :
  forall n, In n ["bypass_author_approval"; "bypass_peer_approval"; "bypass_leader_approval"]%string ->
  In n bypass_list.
Proof.
  intros n [<-|[<-|[<-|[]]]]; apply (existsb_eqb_In String.eqb String.eqb_eq); reflexivity.
Qed.

Lemma c04_facts_cmdline_wiring :
  forall n, In n ["bypass_author_approval"; "bypass_peer_approval"; "bypass_leader_approval";
                  "approve"; "unanimity"]%string ->
  assoc n cmdline_wiring = Some (false, true).
Proof.
  intros n [<-|[<-|[<-|[<-|[<-|[]]]]]]; reflexivity.
Qed.

Lemma c04_facts_settings_rule :
  settings_rule = [("required_leader_approvals", (">", "required_peer_approvals"));
                   ("required_leader_approvals", (">", "len(project_leaders)"))]%string.
Proof. reflexivity. Qed.

(* what the five reads of check_approvals evaluate to: lookups in the generated tables *)
Lemma bypass_author_value c l p : bypass "bypass_author_approval" c l p = Some (c || l || p).
Proof. destruct c, l, p; reflexivity. Qed.
Lemma bypass_peer_value c l p : bypass "bypass_peer_approval" c l p = Some (c || l || p).
Proof. destruct c, l, p; reflexivity. Qed.
Lemma bypass_leader_value c l p : bypass "bypass_leader_approval" c l p = Some (c || l || p).
Proof. destruct c, l, p; reflexivity. Qed.
Lemma approve_value a : settings_value "approve" a false = Some a.
Proof. destruct a; reflexivity. Qed.
Lemma unanimity_value a : settings_value "unanimity" a false = Some a.
Proof. destruct a; reflexivity. Qed.

Lemma check_approvals_eq i :
  check_approvals i =
  if waivedb i then Pass
  else check_tail i (i_approve i) (i_unanimity i)
         (negb (i_need_author i) || author_byp i || i_approve i)
         (if peer_byp i then i_required_peer i else 0)
         (if leader_byp i then i_required_leader i else 0).
Proof.
  unfold check_approvals, waivedb.
  rewrite bypass_peer_value, bypass_leader_value, bypass_author_value, approve_value, unanimity_value,
    !credit_geb.
  reflexivity.
Qed.

Lemma mem_In x s : mem x s = true <-> In x s.
Proof. apply (existsb_eqb_In N.eqb N.eqb_eq). Qed.

Lemma mem_false x s : mem x s = false <-> ~ In x s.
Proof. rewrite <- mem_In. symmetry. apply not_true_iff_false. Qed.

Lemma to_set_In x l : In x (to_set l) <-> In x l.
Proof.
  induction l as [|y t IH]; cbn [to_set]; [tauto|].
  destruct (mem y t) eqn:E; cbn [In]; rewrite IH; [apply mem_In in E|]; intuition congruence.
Qed.

Lemma to_set_NoDup l : NoDup (to_set l).
Proof.
  induction l as [|y t IH]; cbn [to_set]; [constructor|].
  destruct (mem y t) eqn:E; [exact IH|].
  constructor; [|exact IH]. rewrite to_set_In. apply mem_false, E.
Qed.

Lemma set_add_In x y s : In y (set_add x s) <-> y = x \/ In y s.
Proof.
  unfold set_add. destruct (mem x s) eqn:E; cbn [In]; [apply mem_In in E|]; intuition congruence.
Qed.

Lemma set_add_NoDup x s : NoDup s -> NoDup (set_add x s).
Proof.
  intro H. unfold set_add. destruct (mem x s) eqn:E; [exact H|].
  constructor; [apply mem_false, E | exact H].
Qed.

Lemma set_sub1_In y s x : In y (set_sub1 s x) <-> In y s /\ y <> x.
Proof. unfold set_sub1. rewrite filter_In, negb_true_iff, N.eqb_neq. reflexivity. Qed.

Lemma set_inter_In y a b : In y (set_inter a b) <-> In y a /\ In y b.
Proof. unfold set_inter. rewrite filter_In, mem_In. reflexivity. Qed.

Lemma set_le_spec a b : set_le a b = true <-> forall y, In y a -> In y b.
Proof.
  unfold set_le. rewrite forallb_forall. split; intros H y Hy; apply mem_In, H, Hy.
Qed.

Lemma len_to_set_pos l : (len (to_set l) >? 0)%Z = match l with [] => false | _ => true end.
Proof.
  destruct l as [|x t]; [reflexivity|].
  pose proof (proj2 (to_set_In x (x :: t)) (or_introl eq_refl)) as I.
  destruct (to_set (x :: t)); [destruct I | reflexivity].
Qed.

Lemma len_inter_add a s l :
  len (set_inter (set_add a s) l) = (len (set_inter s l) + if mem a l && negb (mem a s) then 1 else 0)%Z.
Proof.
  unfold set_add, set_inter, len.
  destruct (mem a s); cbn [filter]; destruct (mem a l); cbn [List.length andb negb]; lia.
Qed.

Lemma bypassed_orb c l p : bypassed c l p <-> c || l || p = true.
Proof. unfold bypassed. rewrite !orb_true_iff. tauto. Qed.

Lemma author_byp_iff i : author_byp i = true <-> author_bypassed i.
Proof. symmetry. apply bypassed_orb. Qed.
Lemma peer_byp_iff i : peer_byp i = true <-> peer_bypassed i.
Proof. symmetry. apply bypassed_orb. Qed.
Lemma leader_byp_iff i : leader_byp i = true <-> leader_bypassed i.
Proof. symmetry. apply bypassed_orb. Qed.

Lemma approve_approved i : i_approve i = true -> approved i (i_author i).
Proof. intro H. right. split; [exact H | reflexivity]. Qed.

Lemma at_least_nonpos n P : (n <= 0)%Z -> at_least n P.
Proof. intro H. exists []. split; [constructor|]. split; [intros x [] | exact H]. Qed.

Lemma at_least_le n (P : user -> Prop) S : at_least n P -> (forall x, P x -> In x S) -> (n <= len S)%Z.
Proof.
  intros (l & Hl & HlP & Hn) HS.
  pose proof (NoDup_incl_length Hl (fun x Hx => HS x (HlP x Hx))). unfold len. lia.
Qed.

Lemma at_least_card n (P : user -> Prop) S :
  NoDup S -> (forall x, In x S <-> P x) -> (at_least n P <-> (n <= len S)%Z).
Proof.
  intros HS HP. split.
  - intro H. apply (at_least_le n P S H). intro x. apply HP.
  - intro Hn. exists S. split; [exact HS|]. split; [intro x; apply HP | exact Hn].
Qed.

Lemma author_waived_iff i :
  negb (i_need_author i) || author_byp i || i_approve i = true <->
  i_need_author i = false \/ author_bypassed i \/ i_approve i = true.
Proof. rewrite !orb_true_iff, negb_true_iff, author_byp_iff. apply or_assoc. Qed.

Lemma waivedb_iff i : waivedb i = true <-> waived i.
Proof.
  unfold waivedb, waived.
  rewrite !andb_true_iff, author_waived_iff, !orb_true_iff, !Z.leb_le, peer_byp_iff, leader_byp_iff,
    negb_true_iff, !and_assoc.
  reflexivity.
Qed.

Lemma waived_spec_pass i : waived i -> spec_pass i.
Proof.
  intro W. pose proof W as (Wa & Wp & Wl & Wu). pose proof (approve_approved i) as Ha.
  split; [|split; [|split; [|split]]].
  - unfold author_ok. tauto.
  - destruct Wp as [H|H]; [left; exact H | right; apply at_least_nonpos, H].
  - destruct Wl as [H|H]; [left; exact H | right; apply at_least_nonpos, H].
  - intro H. rewrite Wu in H. discriminate H.
  - right. exact W.
Qed.

Lemma no_change_requestb_iff i : no_change_requestb i = true <-> no_change_request i.
Proof.
  unfold no_change_requestb, no_change_request. destruct (i_change_requests i) as [|x t].
  - split; [intros _ y [] | reflexivity].
  - split; [discriminate|]. intro H. destruct (H x). left; reflexivity.
Qed.

(* approvals = set(get_approvals()); if approve: approvals.add(author) *)
Definition c04_A (i : inputs) : list user :=
  if i_approve i then set_add (i_author i) (to_set (i_approvals i)) else to_set (i_approvals i).

Lemma c04_A_In i x : In x (c04_A i) <-> approved i x.
Proof.
  unfold c04_A, approved. destruct (i_approve i).
  - rewrite set_add_In, to_set_In. intuition.
  - rewrite to_set_In. intuition discriminate.
Qed.

Lemma c04_A_NoDup i : NoDup (c04_A i).
Proof.
  unfold c04_A. destruct (i_approve i); [apply set_add_NoDup|]; apply to_set_NoDup.
Qed.

(* A count test of the code: the running total T starts from the whole requirement r when bypassed,
   else from 0, and adds the size of a set S that enumerates the users with P. *)
Lemma count_test (b : bool) r T (P : user -> Prop) S :
  NoDup S -> (forall x, In x S <-> P x) -> T = ((if b then r else 0) + len S)%Z ->
  ((r - T >? 0)%Z = false <-> b = true \/ at_least r P).
Proof.
  intros HS HP ->. rewrite Z.gtb_ltb, Z.ltb_ge, Z.le_sub_0, (at_least_card r P S HS HP). unfold len.
  destruct b; intuition (discriminate || lia).
Qed.

Lemma raise_unless (b1 b2 b3 b4 b5 : bool) (P1 P2 P3 P4 P5 : Prop) :
  (b1 = false <-> P1) -> (b2 = false <-> P2) -> (b3 = false <-> P3) -> (b4 = false <-> P4) ->
  (b5 = false <-> P5) ->
  ((if b1 || b2 || b3 || b4 || b5 then ApprovalRequired else Pass) = Pass <-> P1 /\ P2 /\ P3 /\ P4 /\ P5).
Proof.
  intros <- <- <- <- <-. rewrite <- !and_assoc, <- !orb_false_iff.
  destruct (b1 || b2 || b3 || b4 || b5); split; (reflexivity || discriminate).
Qed.

(* the code tests the leaders before the peers *)
Lemma c04_check_tail_pass i :
  check_tail i (i_approve i) (i_unanimity i) (negb (i_need_author i) || author_byp i || i_approve i)
    (if peer_byp i then i_required_peer i else 0) (if leader_byp i then i_required_leader i else 0) = Pass <->
  author_ok i /\ leaders_ok i /\ peers_ok i /\ unanimity_ok i /\ no_change_request i.
Proof.
  unfold check_tail. cbv zeta. fold (c04_A i). apply raise_unless.
  - (* approved_by_author *)
    pose proof (approve_approved i).
    rewrite negb_false_iff, orb_true_iff, author_waived_iff, mem_In, c04_A_In. unfold author_ok. tauto.
  - (* the leaders among the approvers, and the author if a leader: (approvals + {author}) & leaders *)
    unfold leaders_ok. rewrite <- leader_byp_iff.
    apply (count_test _ _ _ _ (set_inter (set_add (i_author i) (c04_A i)) (to_set (i_leaders i)))).
    + apply NoDup_filter, set_add_NoDup, c04_A_NoDup.
    + intro x. rewrite set_inter_In, set_add_In, c04_A_In, to_set_In. tauto.
    + rewrite len_inter_add. destruct (_ && _); lia.
  - (* the approvers other than the author *)
    unfold peers_ok. rewrite <- peer_byp_iff.
    apply (count_test _ _ _ _ (set_sub1 (c04_A i) (i_author i))).
    + apply NoDup_filter, c04_A_NoDup.
    + intro x. rewrite set_sub1_In, c04_A_In. reflexivity.
    + reflexivity.
  - (* participants - {robot} <= approvals *)
    unfold unanimity_ok. destruct (i_unanimity i); cbn [andb]; [|split; [discriminate | reflexivity]].
    rewrite negb_false_iff, set_le_spec. split.
    + intros H _ x Hx Hr. apply c04_A_In, H, set_sub1_In. rewrite to_set_In. tauto.
    + intros H y Hy. apply set_sub1_In in Hy as [Hy Hr]. rewrite to_set_In in Hy.
      apply c04_A_In, H; auto.
  - (* len(change_requests) > 0 *)
    rewrite len_to_set_pos, <- no_change_requestb_iff. unfold no_change_requestb.
    destruct (i_change_requests i); split; congruence.
Qed.

Theorem c04_check_approvals_iff_spec i : check_approvals i = Pass <-> spec_pass i.
Proof.
  rewrite check_approvals_eq. destruct (waivedb i) eqn:W.
  - (* early return: every requirement is waived, all five conjuncts hold *)
    apply waivedb_iff in W. split; [intros _; apply waived_spec_pass, W | reflexivity].
  - (* not waived: the five tests of the code are the five conjuncts *)
    assert (NW : ~ waived i) by (rewrite <- waivedb_iff, W; discriminate).
    rewrite c04_check_tail_pass. unfold spec_pass. tauto.
Qed.

(* The decision procedure of Spec/C04Spec.v (the extracted monitor). Spec's [inb] and [distinct] are the
   model's [mem] and [to_set] written again: convertible, which inb_In and count_card rely on. *)
Lemma inb_In x l : inb x l = true <-> In x l.
Proof. exact (mem_In x l). Qed.

Lemma approvedb_spec i x : approvedb i x = true <-> approved i x.
Proof.
  unfold approvedb, approved. rewrite orb_true_iff, andb_true_iff, N.eqb_eq, inb_In. reflexivity.
Qed.

Lemma author_okb_iff i : author_okb i = true <-> author_ok i.
Proof.
  unfold author_okb, author_ok. rewrite !orb_true_iff, negb_true_iff, author_byp_iff, approvedb_spec. tauto.
Qed.

Lemma count_card n (P : user -> Prop) (Pb : user -> bool) (cands : list user) :
  (forall x, P x <-> In x cands /\ Pb x = true) ->
  (at_least n P <-> (n <= count Pb cands)%Z).
Proof.
  intro H. apply (at_least_card n P (to_set (filter Pb cands)) (to_set_NoDup _)).
  intro x. rewrite to_set_In, filter_In. symmetry. apply H.
Qed.

Lemma peers_okb_iff i : peers_okb i = true <-> peers_ok i.
Proof.
  unfold peers_okb, peers_ok. rewrite orb_true_iff, peer_byp_iff, Z.leb_le, <- count_card; [reflexivity|].
  intro x. rewrite andb_true_iff, negb_true_iff, N.eqb_neq, approvedb_spec. cbn [In].
  unfold approved. intuition congruence.
Qed.

Lemma leaders_okb_iff i : leaders_okb i = true <-> leaders_ok i.
Proof.
  unfold leaders_okb, leaders_ok. rewrite orb_true_iff, leader_byp_iff, Z.leb_le, <- count_card; [reflexivity|].
  intro x. rewrite orb_true_iff, N.eqb_eq, approvedb_spec. reflexivity.
Qed.

Lemma unanimity_okb_iff i : unanimity_okb i = true <-> unanimity_ok i.
Proof.
  unfold unanimity_okb, unanimity_ok. destruct (i_unanimity i); cbn [negb orb]; [|split; [discriminate | reflexivity]].
  rewrite forallb_forall. split.
  - intros H _ x Hx Hr. apply approvedb_spec.
    destruct (orb_prop _ _ (H x Hx)) as [E|E]; [apply N.eqb_eq in E; contradiction | exact E].
  - intros H x Hx. destruct (N.eqb_spec x (i_robot i)); [reflexivity|]. apply approvedb_spec, H; auto.
Qed.

Theorem c04_spec_passb_iff i : spec_passb i = true <-> spec_pass i.
Proof.
  unfold spec_passb, spec_pass.
  rewrite !andb_true_iff, orb_true_iff, author_okb_iff, peers_okb_iff, leaders_okb_iff, unanimity_okb_iff,
    no_change_requestb_iff, waivedb_iff, !and_assoc.
  reflexivity.
Qed.

Corollary c04_model_eq_monitor i : check_approvals i = Pass <-> spec_passb i = true.
Proof. rewrite c04_check_approvals_iff_spec, c04_spec_passb_iff. reflexivity. Qed.

Definition with_change_requests (i : inputs) (cr : list user) : inputs :=
  mkInputs (i_required_peer i) (i_required_leader i) (i_need_author i)
    (i_bypass_author_comment i) (i_bypass_author_cmdline i) (i_bypass_author_setting i)
    (i_bypass_peer_comment i) (i_bypass_peer_cmdline i) (i_bypass_peer_setting i)
    (i_bypass_leader_comment i) (i_bypass_leader_cmdline i) (i_bypass_leader_setting i)
    (i_approve i) (i_unanimity i) (i_robot i) (i_author i)
    (i_leaders i) (i_participants i) (i_approvals i) cr.

Definition with_sources (i : inputs) (ac al ap pc pl pp lc ll lp : bool) : inputs :=
  mkInputs (i_required_peer i) (i_required_leader i) (i_need_author i)
    ac al ap pc pl pp lc ll lp
    (i_approve i) (i_unanimity i) (i_robot i) (i_author i)
    (i_leaders i) (i_participants i) (i_approvals i) (i_change_requests i).

Theorem c04_reduction i ac al ap pc pl pp lc ll lp cr :
  ac || al || ap = author_byp i -> pc || pl || pp = peer_byp i -> lc || ll || lp = leader_byp i ->
  (cr = [] <-> i_change_requests i = []) ->
  check_approvals (with_change_requests (with_sources i ac al ap pc pl pp lc ll lp) cr) = check_approvals i.
Proof.
  intros Ha Hp Hl Hc. rewrite !check_approvals_eq.
  unfold waivedb, check_tail, author_byp, peer_byp, leader_byp, orb3.
  (* every field read is a field of i, one of the nine sources, or cr *)
  cbn [with_change_requests with_sources i_required_peer i_required_leader i_need_author
       i_bypass_author_comment i_bypass_author_cmdline i_bypass_author_setting
       i_bypass_peer_comment i_bypass_peer_cmdline i_bypass_peer_setting
       i_bypass_leader_comment i_bypass_leader_cmdline i_bypass_leader_setting
       i_approve i_unanimity i_robot i_author i_leaders i_participants i_approvals i_change_requests].
  rewrite Ha, Hp, Hl, !len_to_set_pos.
  destruct cr, (i_change_requests i); try reflexivity;
    [destruct Hc as [H _] | destruct Hc as [_ H]]; discriminate (H eq_refl).
Qed.

(* the canonical representative the enumeration runs: every bypass that is on is on by comment,
   a non-empty change-request set is {r} *)
Definition c04_canonical (r : user) (i : inputs) : inputs :=
  with_change_requests
    (with_sources i
       (i_bypass_author_comment i || i_bypass_author_cmdline i || i_bypass_author_setting i) false false
       (i_bypass_peer_comment i || i_bypass_peer_cmdline i || i_bypass_peer_setting i) false false
       (i_bypass_leader_comment i || i_bypass_leader_cmdline i || i_bypass_leader_setting i) false false)
    (match i_change_requests i with [] => [] | _ => [r] end).

(* Non-vacuity. Users: 0 author, 1 and 2 peers, 3 leader, 4 robot *)
Definition c04_ex (rp rl : Z) (need pc pl pp appr unan : bool) (leaders parts apps crs : list user) : inputs :=
  mkInputs rp rl need false false false pc pl pp false false false appr unan 4%N 0%N leaders parts apps crs.

Example c04_example_pass :
  let i := c04_ex 2 1 true false false false false true [3%N] [0;1;3;4]%N [0;1;3]%N [] in
  check_approvals i = Pass /\ spec_pass i /\ ~ waived i.
Proof.
  intro i. assert (P : check_approvals i = Pass) by (vm_compute; reflexivity).
  split; [exact P|]. split; [apply c04_check_approvals_iff_spec, P|].
  intros (_ & _ & _ & H). discriminate H.
Qed.

Example c04_example_fail :
  let i := c04_ex 2 1 true false false false false false [3%N] [0;3;4]%N [0;3]%N [] in
  check_approvals i = ApprovalRequired /\ ~ spec_pass i.
Proof.
  intro i. assert (F : check_approvals i = ApprovalRequired) by (vm_compute; reflexivity).
  split; [exact F|]. intro H. apply c04_check_approvals_iff_spec in H. rewrite F in H. discriminate H.
Qed.

Example c04_example_change_request :
  let i := c04_ex 1 0 true false false false false false [3%N] [0;1]%N [0;1]%N [2%N] in
  check_approvals i = ApprovalRequired /\ check_approvals (with_change_requests i []) = Pass.
Proof. split; vm_compute; reflexivity. Qed.

Example c04_example_waived :
  let i := c04_ex 2 0 false true false false false false [3%N] [1]%N [] [1%N] in
  check_approvals i = Pass /\ waived i.
Proof. split; [|apply waivedb_iff]; vm_compute; reflexivity. Qed.

(* regression (fixed in /repo "fix: unanimity is met when every participant approved"): unanimity on,
   the author approves through the `approve` option and is not listed among the participants *)
Example c04_example_regression_unanimity :
  let i := c04_ex 1 0 true false false false true true [3%N] [1;4]%N [1]%N [] in
  check_approvals i = Pass /\ spec_pass i.
Proof.
  intro i. assert (P : check_approvals i = Pass) by (vm_compute; reflexivity).
  split; [exact P | apply c04_check_approvals_iff_spec, P].
Qed.

(* the leader "+1": a leader who authored and did not approve counts for one leader approval *)
Example c04_example_leader_author :
  let i := c04_ex 1 1 false false false false false false [0;3]%N [1]%N [1]%N [] in
  check_approvals i = Pass /\
  check_approvals (c04_ex 1 1 false false false false false false [3]%N [1]%N [1]%N []) = ApprovalRequired.
Proof. split; vm_compute; reflexivity. Qed.

(* the hypotheses of C04_leaders_reachable (Properties/C04.v) can be met *)
Example c04_example_settings :
  let i := c04_ex 2 1 true false false false false false [3%N] [0;1;3]%N [0;1;3]%N [] in
  settings_valid i /\ NoDup (i_leaders i) /\ (forall x, In x (i_leaders i) -> approved i x).
Proof.
  cbv zeta. split; [split; cbn; lia|]. split.
  - repeat constructor. intros [].
  - intros x [<-|[]]. left. cbn. tauto.
Qed.
