(* Proofs for C19: the integration branches / integration pull requests bookkeeping keeps the one-to-one
   invariant under every event, redirects child and commit events to the parent, declines / deletes exactly the
   integration data of a declined pull request and removes the integration branches of a merged one.

   The invariant looks at the pull requests of a world only through their ids and through the OPEN ones, and at
   the branches only through the absence of duplicates (c19_Inv_iff).  Every operation of a job either takes
   OPEN pull requests to DECLINED / MERGED (c19_demote, c19_inv_demote) or appends pull requests with fresh ids
   (c19_inv_snoc, hence c19_inv_user_open and c19_inv_children), and filters or extends the branch list.

   Imported by Properties/C19.v only; the prefix c19_ is the convention of this file.  In order: boolean tests and
   the branch list; ids; demotion; the invariant and new pull requests; the operations up to c19_step_inv; which
   pull request an event evaluates, redirection, merge, decline; the executable forms of the predicates of
   Spec/C19Spec.v; the witnesses against the unhypothesised statements and the examples.  The generated facts
   (Generated/Facts_C19.v) enter through c19_host_listed and c19_mk_child_named only. *)
From Coq Require Import List String Bool ZArith Arith Lia.
Require Import BertE.Base.Lists.
Require Import BertE.Generated.Facts_C19 BertE.Model.Integration BertE.Spec.C19Spec.
Import ListNotations.
Open Scope Z_scope.

Lemma c19_NoDup_tl {A} (l : list A) : NoDup l -> NoDup (tl l).
Proof. intro H. destruct l; [exact H|]. apply NoDup_cons_iff in H. apply H. Qed.

Lemma c19_name_eqb_eq a b : name_eqb a b = true <-> a = b.
Proof.
  split.
  - destruct a, b; cbn [name_eqb]; try discriminate; rewrite ?andb_true_iff, !String.eqb_eq; intuition congruence.
  - intros <-. destruct a; cbn [name_eqb]; rewrite !String.eqb_refl; reflexivity.
Qed.

Lemma c19_name_eqb_refl a : name_eqb a a = true.
Proof. apply c19_name_eqb_eq. reflexivity. Qed.

Lemma c19_mem_name_In n l : mem_name n l = true <-> In n l.
Proof. exact (existsb_eqb_In name_eqb c19_name_eqb_eq n l). Qed.

Lemma c19_mem_name_false n l : mem_name n l = false <-> ~ In n l.
Proof. rewrite <- c19_mem_name_In. symmetry. apply not_true_iff_false. Qed.

Lemma c19_mem_Z_In z l : mem_Z z l = true <-> In z l.
Proof. exact (existsb_eqb_In Z.eqb Z.eqb_eq z l). Qed.

Lemma c19_is_open_true c : is_open c = true <-> pst c = OPEN.
Proof. unfold is_open. destruct (pst c); split; intro H; try reflexivity; discriminate H. Qed.

Lemma c19_child_match_iff v s c : child_match v s c = true <-> psrc c = W v s /\ pdst c = Dst v.
Proof. unfold child_match. rewrite andb_true_iff, !c19_name_eqb_eq. reflexivity. Qed.

Lemma c19_open_and c b : is_open c && b = true -> pst c = OPEN.
Proof. intro H. apply andb_true_iff in H. apply c19_is_open_true, H. Qed.

(* by the generated fact get_pull_requests_default_open: the host lists the OPEN pull requests *)
Lemma c19_host_listed c : host_listed c = is_open c.
Proof. reflexivity. Qed.

Lemma c19_listed_open c b : host_listed c && is_open c && b = true -> pst c = OPEN.
Proof. intro H. apply andb_true_iff in H as [H _]. apply andb_true_iff in H. apply c19_is_open_true, H. Qed.

Lemma c19_existsb_and {A} (a : bool) (g : A -> bool) l : existsb (fun v => a && g v) l = a && existsb g l.
Proof. induction l as [|x t IH]; cbn [existsb]; [destruct a; reflexivity|]. rewrite IH. destruct a, (g x); reflexivity. Qed.

(* "at most one branch of a name" is NoDup; the operations on the branch list are stated for NoDup and In *)

Lemma c19_count_cons n x t : count_name n (x :: t) = ((if name_eqb n x then 1 else 0) + count_name n t)%nat.
Proof. unfold count_name. cbn [filter]. destruct (name_eqb n x); reflexivity. Qed.

Lemma c19_count_zero n l : ~ In n l -> count_name n l = 0%nat.
Proof.
  induction l as [|x t IH]; intro H; [reflexivity|]. rewrite c19_count_cons, IH by (intro I; apply H; right; exact I).
  destruct (name_eqb n x) eqn:E; [|reflexivity]. apply c19_name_eqb_eq in E. destruct H. left. symmetry. exact E.
Qed.

Lemma c19_count_pos n l : In n l -> (1 <= count_name n l)%nat.
Proof.
  induction l as [|x t IH]; intro H; [destruct H|]. rewrite c19_count_cons.
  destruct H as [->|H]; [rewrite c19_name_eqb_refl; apply le_n_S, Nat.le_0_l|].
  apply Nat.le_trans with (1 := IH H), Nat.le_add_l.
Qed.

Lemma c19_count_le1 n l : (In n l -> (count_name n l <= 1)%nat) -> (count_name n l <= 1)%nat.
Proof.
  intro H. destruct (mem_name n l) eqn:E; [apply H, c19_mem_name_In, E|].
  apply c19_mem_name_false in E. rewrite (c19_count_zero _ _ E). apply Nat.le_0_l.
Qed.

Lemma c19_count_NoDup l : (forall n, (count_name n l <= 1)%nat) <-> NoDup l.
Proof.
  induction l as [|x t IH]; [split; [constructor | intros _ n; apply Nat.le_0_l]|].
  rewrite NoDup_cons_iff, <- IH. split.
  - intro H. split.
    + intro I. apply c19_count_pos in I. specialize (H x). rewrite c19_count_cons, c19_name_eqb_refl in H. lia.
    + intro n. specialize (H n). rewrite c19_count_cons in H. lia.
  - intros [Hx Ht] n. rewrite c19_count_cons. destruct (name_eqb n x) eqn:E; [|apply Ht].
    apply c19_name_eqb_eq in E. subst n. rewrite (c19_count_zero _ _ Hx). reflexivity.
Qed.

Lemma c19_In_add m bs n : In n (add_branch m bs) <-> In n bs \/ n = m.
Proof.
  unfold add_branch. destruct (mem_name m bs) eqn:E.
  - apply c19_mem_name_In in E. split; [auto | intros [H| ->]; assumption].
  - rewrite in_app_iff. cbn [In]. intuition.
Qed.

Lemma c19_NoDup_add m bs : NoDup bs -> NoDup (add_branch m bs).
Proof.
  intro H. unfold add_branch. destruct (mem_name m bs) eqn:E; [exact H|].
  apply NoDup_snoc; [exact H | apply c19_mem_name_false, E].
Qed.

Lemma c19_In_create s vs : forall bs n,
  In n (create_integration_branches s vs bs) <-> In n bs \/ exists v, In v vs /\ n = W v s.
Proof.
  unfold create_integration_branches. induction vs as [|v t IH]; intros bs n; cbn [fold_left].
  - split; [auto | intros [H|[v [[] _]]]; exact H].
  - rewrite IH, c19_In_add. split.
    + intros [[H| ->]|[u [Hu ->]]]; [auto | right; exists v | right; exists u]; cbn [In]; auto.
    + intros [H|[u [[<-|Hu] ->]]]; [auto | auto | right; exists u; auto].
Qed.

Lemma c19_NoDup_create s vs : forall bs, NoDup bs -> NoDup (create_integration_branches s vs bs).
Proof.
  unfold create_integration_branches. induction vs as [|v t IH]; intros bs H; [exact H|].
  apply IH, c19_NoDup_add, H.
Qed.

Lemma c19_In_w_names s vs n : In n (w_names s vs) <-> exists v, In v vs /\ n = W v s.
Proof. unfold w_names. rewrite in_map_iff. split; intros [v [A B]]; exists v; auto. Qed.

Lemma c19_In_remove s vs bs n : In n (remove_w s vs bs) <-> In n bs /\ ~ exists v, In v vs /\ n = W v s.
Proof.
  unfold remove_w. rewrite filter_In, negb_true_iff, c19_mem_name_false, c19_In_w_names. reflexivity.
Qed.

Lemma c19_remove_w_clean s vs ps bs : NoIntegrationBranchLeft s vs (mkWorld ps (remove_w s vs bs)).
Proof. intros v Hv H. apply c19_In_remove in H. apply (proj2 H). exists v. auto. Qed.

Lemma c19_filter_id : exists f, forall bs : list name, bs = filter f bs.
Proof. exists (fun _ => true). intro bs. symmetry. apply filter_all. reflexivity. Qed.

(* closing queued pull requests only filters the branch list *)
Lemma c19_close_one_filter x ps id : exists f, forall bs, close_one x ps bs id = filter f bs.
Proof.
  pose proof c19_filter_id as H. unfold close_one. destruct (find_pr id ps) as [p|]; [|exact H]. destruct (psrc p); try exact H.
  destruct (pdst p); try exact H. destruct (targets_for v (cascade x)); [|exact H]. eexists. reflexivity.
Qed.

Lemma c19_fold_close_filter x ps ids : exists f, forall bs, fold_left (close_one x ps) ids bs = filter f bs.
Proof.
  induction ids as [|i t [g IH]]; cbn [fold_left]; [exact c19_filter_id|].
  destruct (c19_close_one_filter x ps i) as [f Hf]. exists (fun n => f n && g n). intro bs.
  rewrite Hf, IH. apply filter_filter.
Qed.

Lemma c19_next_id_fresh ps c : In c ps -> pid c < next_id ps.
Proof.
  unfold next_id, max_id. induction ps as [|x t IH]; intro H; [destruct H|]. cbn [fold_right].
  destruct H as [->|H]; [|specialize (IH H)]; lia.
Qed.

Lemma c19_find_pr_In id ps p : find_pr id ps = Some p -> In p ps /\ pid p = id.
Proof. unfold find_pr. intro H. apply find_some in H. destruct H as [H E]. apply Z.eqb_eq in E. auto. Qed.

Lemma c19_find_pr_unique ps p : NoDup (map pid ps) -> In p ps -> find_pr (pid p) ps = Some p.
Proof.
  intros ND H. destruct (find_pr (pid p) ps) as [q|] eqn:F.
  - apply c19_find_pr_In in F as [Hq E]. f_equal. exact (NoDup_map_inj pid ps q p ND Hq H E).
  - apply (find_none _ _ F) in H. rewrite Z.eqb_refl in H. discriminate H.
Qed.

(* every operation of a job on existing pull requests only takes OPEN ones to DECLINED / MERGED *)

Definition c19_dem (c c' : pr) : Prop :=
  c' = c \/ (pst c = OPEN /\ exists st, st <> OPEN /\ c' = set_st st c).

Definition c19_demote (ps ps' : list pr) : Prop := Forall2 c19_dem ps ps'.

Lemma c19_dem_pid c c' : c19_dem c c' -> pid c' = pid c.
Proof. intros [->|[_ [st [_ ->]]]]; reflexivity. Qed.

Lemma c19_dem_open c c' : c19_dem c c' -> pst c' = OPEN -> c' = c.
Proof. intros [->|[_ [st [Hst ->]]]] Ho; [reflexivity | destruct (Hst Ho)]. Qed.

Lemma c19_dem_if (b : bool) st c : st <> OPEN -> (b = true -> pst c = OPEN) -> c19_dem c (if b then set_st st c else c).
Proof. intros Hst H. destruct b; [right; eauto | left; reflexivity]. Qed.

Lemma c19_demote_refl ps : c19_demote ps ps.
Proof. induction ps; constructor; [left; reflexivity | assumption]. Qed.

Lemma c19_demote_map (f : pr -> bool) st ps :
  st <> OPEN -> (forall c, f c = true -> pst c = OPEN) -> c19_demote ps (map (fun c => if f c then set_st st c else c) ps).
Proof. intros Hst H. induction ps as [|c t IH]; constructor; [apply c19_dem_if; auto | exact IH]. Qed.

Lemma c19_demote_ids ps ps' : c19_demote ps ps' -> map pid ps' = map pid ps.
Proof. induction 1 as [|c c' t t' Hd _ IH]; [reflexivity|]. cbn [map]. rewrite IH, (c19_dem_pid _ _ Hd). reflexivity. Qed.

Lemma c19_demote_open_In ps ps' : c19_demote ps ps' -> forall c', In c' ps' -> pst c' = OPEN -> In c' ps.
Proof.
  induction 1 as [|c d t t' Hd _ IH]; intros c' HI Ho; [destruct HI|].
  destruct HI as [<-|HI]; [left; symmetry; exact (c19_dem_open _ _ Hd Ho) | right; apply IH; assumption].
Qed.

Lemma c19_demote_max_id ps ps' : c19_demote ps ps' -> max_id ps' = max_id ps.
Proof.
  induction 1 as [|c c' t t' Hd _ IH]; [reflexivity|]. unfold max_id in *. cbn [fold_right].
  rewrite IH, (c19_dem_pid _ _ Hd). reflexivity.
Qed.

Lemma c19_demote_decline_first f a b :
  (forall c, f c = true -> pst c = OPEN) -> c19_demote a b -> c19_demote a (decline_first f b).
Proof.
  intros H Hd. induction Hd as [|x y t t' Hx Ht IH]; cbn [decline_first]; [constructor|].
  destruct (f y) eqn:E; constructor; try assumption.
  pose proof (H y E) as Oy. rewrite (c19_dem_open _ _ Hx Oy) in *. apply (c19_dem_if true); [discriminate | auto].
Qed.

Lemma c19_fold_demote {A} (fv : A -> pr -> bool) ts a :
  (forall v c, fv v c = true -> pst c = OPEN) ->
  forall b, c19_demote a b -> c19_demote a (fold_left (fun l v => decline_first (fv v) l) ts b).
Proof.
  intro H. induction ts as [|v t IH]; intros b Hd; [exact Hd|]. apply IH, c19_demote_decline_first; [apply H | exact Hd].
Qed.

Lemma c19_reset_demote s ts w : c19_demote (prs w) (prs (reset s ts w)).
Proof. apply c19_demote_map; [discriminate | intro c; apply c19_listed_open]. Qed.

Lemma c19_declined_demote s ts w : c19_demote (prs w) (prs (handle_declined s ts w)).
Proof. apply c19_fold_demote; [intros v c; apply c19_listed_open | apply c19_demote_refl]. Qed.

Lemma c19_user_decline_demote id w : c19_demote (prs w) (prs (user_decline id w)).
Proof. apply c19_demote_map; [discriminate | intro c; apply c19_open_and]. Qed.

Lemma c19_host_merged_demote ids w : c19_demote (prs w) (prs (host_merged ids w)).
Proof. apply c19_demote_map; [discriminate | intro c; apply c19_open_and]. Qed.

Definition c19_Inv (w : world) : Prop := WellFormed w /\ DistinctSrc w /\ OneToOne w.

(* the clauses of OneToOne on pull requests; the one on branches follows from WellFormed *)
Definition c19_Children (w : world) : Prop :=
  forall p s, user_open_pr w p s -> forall v,
    (forall c1 c2, integration_pr w v s c1 -> integration_pr w v s c2 -> pid c1 = pid c2)
    /\ (forall c, integration_pr w v s c -> named_after p c).

Lemma c19_Inv_iff w :
  c19_Inv w <-> NoDup (map pid (prs w)) /\ NoDup (branches w) /\ DistinctSrc w /\ c19_Children w.
Proof.
  unfold c19_Inv, WellFormed. rewrite c19_count_NoDup. split.
  - intros [[Hid Hbr] [Hds H11]]. repeat (split; [assumption|]). intros p s Hp v. exact (proj2 (H11 p s Hp v)).
  - intros (Hid & Hbr & Hds & Hc). split; [split; assumption|]. split; [exact Hds|]. intros p s Hp v.
    split; [apply c19_count_NoDup, Hbr | exact (Hc p s Hp v)].
Qed.

Lemma c19_inv_demote w w' : c19_Inv w -> c19_demote (prs w) (prs w') -> NoDup (branches w') -> c19_Inv w'.
Proof.
  rewrite !c19_Inv_iff. intros (Hid & _ & Hds & Hc) Hd Hbr.
  pose proof (c19_demote_open_In _ _ Hd) as Hsub.
  assert (Hi : forall v s c, integration_pr w' v s c -> integration_pr w v s c)
    by (intros v s c (I & R & O & S & D); repeat split; auto).
  assert (Hu : forall p s, user_open_pr w' p s -> user_open_pr w p s)
    by (intros p s (I & U & O & S); repeat split; auto).
  split; [rewrite (c19_demote_ids _ _ Hd); exact Hid|]. split; [exact Hbr|]. split.
  - intros p1 p2 s I1 I2 O1 O2. apply Hds; auto.
  - intros p s Hp v. destruct (Hc p s (Hu p s Hp) v) as [Huq Hnm]. split.
    + intros c1 c2 C1 C2. apply Huq; apply Hi; assumption.
    + intros c C. apply Hnm, Hi, C.
Qed.

Lemma c19_inv_set_branches ps bs bs' : c19_Inv (mkWorld ps bs) -> NoDup bs' -> c19_Inv (mkWorld ps bs').
Proof. intros H Hb. exact (c19_inv_demote _ (mkWorld ps bs') H (c19_demote_refl ps) Hb). Qed.

Lemma c19_inv_NoDup_branches w : c19_Inv w -> NoDup (branches w).
Proof. intro H. apply c19_Inv_iff in H. apply H. Qed.

(* a new pull request may be opened from a branch no open pull request uses and for which no open integration
   pull request is left over *)
Definition c19_fresh_source (w : world) (s : string) : Prop :=
  forall q, In q (prs w) -> pst q = OPEN -> psrc q <> Src s /\ forall v, psrc q <> W v s.

(* one more pull request, with an id above the others.  From a feature branch: the branch is fresh.  From
   w/<v>/<s>: no OPEN pull request goes from there to v yet, and it is named after the open pull request of s. *)
Lemma c19_inv_snoc ps bs n (w := mkWorld ps bs) (w' := mkWorld (ps ++ [n]) bs) :
  c19_Inv w -> (forall q, In q ps -> pid q < pid n) ->
  (forall s, psrc n = Src s -> c19_fresh_source w s) ->
  (forall v s, psrc n = W v s ->
     (forall c, ~ integration_pr w v s c) /\ (forall p, user_open_pr w p s -> named_after p n)) ->
  c19_Inv w'.
Proof.
  rewrite !c19_Inv_iff. cbn [prs branches w w']. intros (Hid & Hbr & Hds & Hc) Hn Hsrc Hw.
  assert (Hin : forall q, In q (ps ++ [n]) -> In q ps \/ q = n)
    by (intros q I; apply in_app_iff in I as [I|[<-|[]]]; auto).
  split; [|split; [exact Hbr|split]].
  - rewrite map_app. apply NoDup_snoc; [exact Hid|]. intro I. apply in_map_iff in I as (q & E & I).
    specialize (Hn q I). lia.
  - intros p1 p2 s I1 I2 O1 O2 S1 S2. destruct (Hin _ I1) as [J1| ->], (Hin _ I2) as [J2| ->].
    + exact (Hds p1 p2 s J1 J2 O1 O2 S1 S2).
    + destruct (proj1 (Hsrc s S2 p1 J1 O1) S1).
    + destruct (proj1 (Hsrc s S1 p2 J2 O2) S2).
    + reflexivity.
  - intros q s (Iq & Uq) v.
    assert (Hi : forall c, integration_pr w' v s c -> integration_pr w v s c \/ c = n /\ psrc n = W v s).
    { intros c (I & C). destruct (Hin _ I) as [J| ->]; [left; exact (conj J C) | right; split; [reflexivity | apply C]]. }
    destruct (Hin _ Iq) as [Jq| ->].
    + (* q is an old one: a new integration pull request of its is the only one, and named after it *)
      destruct (Hc q s (conj Jq Uq) v) as [Huq Hnm]. split.
      * intros c1 c2 C1 C2. destruct (Hi _ C1) as [K1|[-> S1]], (Hi _ C2) as [K2|[-> S2]].
        -- apply Huq; assumption.
        -- destruct (proj1 (Hw v s S2) _ K1).
        -- destruct (proj1 (Hw v s S1) _ K2).
        -- reflexivity.
      * intros c C. destruct (Hi _ C) as [K|[-> S]]; [apply Hnm, K | exact (proj2 (Hw v s S) q (conj Jq Uq))].
    + (* q is the new one: its branch is fresh, it has no integration pull request *)
      destruct Uq as (_ & _ & Sq).
      assert (Hno : forall c, ~ integration_pr w' v s c).
      { intros c C. destruct (Hi _ C) as [(I & _ & O & S & _)|[_ S]]; [exact (proj2 (Hsrc s Sq c I O) v S)|].
        rewrite Sq in S. discriminate S. }
      split; [intros c1 c2 C1 | intros c1 C1]; destruct (Hno _ C1).
Qed.

Lemma c19_inv_user_open s d par tit w : c19_fresh_source w s -> c19_Inv w -> c19_Inv (user_open s d par tit w).
Proof.
  intros Hf HI. destruct w as [ps bs]. apply c19_inv_snoc; [exact HI | exact (c19_next_id_fresh ps) | |].
  - intros s0 E. injection E as <-. exact Hf.
  - intros v s0 E. discriminate E.
Qed.

(* by the generated facts description_leading_number and title_first_arg_is_parent_id *)
Lemma c19_mk_child_named id par v s : named_after (mkPr par false (Src s) (Dst v) OPEN None None) (mk_child id par v s).
Proof. split; reflexivity. Qed.

Lemma c19_number_In par s vs : forall id c, In c (number_children id par s vs) ->
  exists v i, In v vs /\ id <= i /\ c = mk_child i par v s.
Proof.
  induction vs as [|v t IH]; intros id c H; [destruct H|]. cbn [number_children] in H.
  destruct H as [<-|H]; [exists v, id; cbn [In]; auto using Z.le_refl|].
  destruct (IH _ _ H) as (u & i & Hu & Hi & ->). exists u, i. cbn [In]. split; [auto|]. split; [lia | reflexivity].
Qed.

Lemma c19_inv_children bs p s vs : forall id ps,
  c19_Inv (mkWorld ps bs) -> user_open_pr (mkWorld ps bs) p s -> NoDup vs -> (forall q, In q ps -> pid q < id) ->
  (forall v q, In v vs -> In q ps -> pst q = OPEN -> psrc q = W v s -> pdst q = Dst v -> False) ->
  c19_Inv (mkWorld (ps ++ number_children id (pid p) s vs) bs).
Proof.
  induction vs as [|v t IH]; intros id ps HI Hp ND Hid Hold; cbn [number_children]; [rewrite app_nil_r; exact HI|].
  apply NoDup_cons_iff in ND as [Hv ND]. pose proof Hp as (Ip & _ & Op & Sp).
  change (mk_child id (pid p) v s :: number_children (id + 1) (pid p) s t)
    with ([mk_child id (pid p) v s] ++ number_children (id + 1) (pid p) s t)%list.
  rewrite app_assoc. apply IH; [apply c19_inv_snoc; [exact HI | exact Hid | |] | | exact ND | |].
  - intros s0 E. discriminate E.
  - intros v0 s0 E. injection E as <- <-. split; [intros c (I & _ & O & S & D); exact (Hold v c (or_introl eq_refl) I O S D)|].
    intros p' (I' & _ & O' & S'). unfold named_after.
    rewrite (proj1 (proj2 HI) p' p s I' Ip O' Op S' Sp). exact (c19_mk_child_named id (pid p) v s).
  - split; [apply in_or_app; left; exact Ip | apply Hp].
  - intros q I. apply in_app_iff in I as [I|[<-|[]]]; [specialize (Hid q I) | cbn [pid mk_child]]; lia.
  - intros u q Hu I O S D. apply in_app_iff in I as [I|[<-|[]]]; [exact (Hold u q (or_intror Hu) I O S D)|].
    injection S as ->. exact (Hv Hu).
Qed.

Lemma c19_inv_create c x p s ts ps bs :
  c19_Inv (mkWorld ps bs) -> user_open_pr (mkWorld ps bs) p s -> NoDup (tl ts) ->
  c19_Inv (mkWorld (create_integration_pull_requests c x (pid p) s ts ps) bs).
Proof.
  intros HI Hp ND. unfold create_integration_pull_requests. destruct (always_prs c || opt_prs x); [|exact HI].
  apply c19_inv_children; [exact HI | exact Hp | apply NoDup_filter, ND | exact (c19_next_id_fresh ps) |].
  (* a version is kept when find_child finds nothing among the listed pull requests, q being one of them *)
  intros v q Hv Hq Ho Hs Hd. apply filter_In in Hv as [Hv F]. destruct (find_child _ v s) eqn:E; [discriminate F|].
  assert (M : child_match v s q = false).
  { apply (find_none _ _ E), filter_In. split; [exact Hq|]. apply andb_true_iff. split; [apply c19_is_open_true, Ho|].
    apply c19_mem_name_In. right. apply c19_In_w_names. eauto. }
  rewrite (proj2 (c19_child_match_iff v s q)) in M by auto. discriminate M.
Qed.

Lemma c19_inv_queue_merge x merged w : c19_Inv w -> c19_Inv (queue_merge x merged w).
Proof.
  intro H. destruct w as [ps bs]. unfold queue_merge. cbn [prs branches].
  destruct (c19_fold_close_filter x ps merged) as [f ->].
  apply (c19_inv_set_branches _ _ _ H), NoDup_filter, (c19_inv_NoDup_branches _ H).
Qed.

Lemma c19_inv_queue_eval c x w w' : c19_Inv w -> queue_eval c x w = Ok w' -> c19_Inv w'.
Proof.
  intros H E. unfold queue_eval in E. destruct (oc x); try discriminate E.
  - injection E as <-. exact H.
  - destruct (use_queue c); [|discriminate E]. injection E as <-. apply c19_inv_queue_merge, H.
Qed.

Definition c19_cascade_ok (x : ectx) : Prop := forall d ts, In (d, ts) (cascade x) -> NoDup ts.

Lemma c19_targets_for_In d c ts : targets_for d c = Some ts -> In (d, ts) c.
Proof.
  induction c as [|[k l] r IH]; cbn [targets_for]; intro H; [discriminate H|].
  destruct (String.eqb k d) eqn:E.
  - apply String.eqb_eq in E. injection H as <-. subst. left; reflexivity.
  - right. apply IH, H.
Qed.

(* an evaluation that has an effect is that of a pull request from a feature branch to a destination that has
   a cascade *)
Lemma c19_eval_user_Ok c x w p w' : eval_user c x w p = Ok w' ->
  w' = w \/ exists s d ts, psrc p = Src s /\ pdst p = Dst d /\ targets_for d (cascade x) = Some ts.
Proof.
  unfold eval_user. intro E.
  (* where the kinds of the branches or the cascade rule the evaluation out, only OBefore succeeds *)
  assert (A : forall e, match oc x with
                        | OBefore => Ok w
                        | _ => match pst p with MERGED => Err BadOutcome | _ => Err e end
                        end = Ok w' -> w' = w).
  { intros e H. destruct (oc x); [injection H; auto|..]; destruct (pst p); discriminate H. }
  destruct (psrc p) as [s|? ?|?|?|?]; try (left; exact (A NotAFeature E)).
  destruct (pdst p) as [?|? ?|d|?|?]; try (left; exact (A NotAFeature E)).
  destruct (targets_for d (cascade x)) as [ts|] eqn:T; [right; exists s, d, ts; auto | left; exact (A NoCascade E)].
Qed.

Lemma c19_inv_eval_user c x w p w' :
  c19_cascade_ok x -> c19_Inv w -> In p (prs w) -> probot p = false -> eval_user c x w p = Ok w' -> c19_Inv w'.
Proof.
  intros Hc HI Ip Hu E. destruct (c19_eval_user_Ok _ _ _ _ _ E) as [->|(s & d & ts & Hs & Hd & Ht)]; [exact HI|].
  pose proof (c19_NoDup_tl _ (Hc _ _ (c19_targets_for_In _ _ _ Ht))) as ND.
  pose proof (c19_inv_NoDup_branches _ HI) as Hb.
  unfold eval_user in E. rewrite Hs, Hd, Ht in E. destruct w as [ps bs]. cbn [prs branches] in *.
  assert (Hp : pst p = OPEN -> user_open_pr (mkWorld ps bs) p s) by (intro; repeat split; assumption).
  destruct (oc x).
  - (* OBefore *) injection E as <-. exact HI.
  - (* ORequestIntegration *) destruct (pst p); try discriminate E.
    destruct (integration_gate c x ts); [discriminate E|]. injection E as <-. exact HI.
  - (* OReset, whether p is OPEN or DECLINED *)
    assert (E' : Ok (reset s ts (mkWorld ps bs)) = Ok w') by (destruct (pst p); [exact E | exact E | discriminate E]).
    injection E' as <-. apply (c19_inv_demote _ _ HI); [apply c19_reset_demote | apply NoDup_filter, Hb].
  - (* ODeclined *) destruct (pst p); try discriminate E. injection E as <-.
    apply (c19_inv_demote _ _ HI); [apply c19_declined_demote | apply NoDup_filter, Hb].
  - (* OConflict *) destruct (pst p); try discriminate E.
    destruct (integration_gate c x ts); [|discriminate E]. injection E as <-.
    apply (c19_inv_set_branches _ _ _ HI), c19_NoDup_create, Hb.
  - (* OCreated *) destruct (pst p); try discriminate E.
    destruct (integration_gate c x ts); [|discriminate E]. injection E as <-.
    apply c19_inv_create; [|exact (Hp eq_refl) | exact ND].
    apply (c19_inv_set_branches _ _ _ HI), c19_NoDup_create, Hb.
  - (* OMerged *) destruct (pst p); try discriminate E.
    destruct (integration_gate c x ts); [|discriminate E]. injection E as <-.
    apply c19_inv_create; [|exact (Hp eq_refl) | exact ND].
    apply (c19_inv_set_branches _ _ _ HI), NoDup_filter, c19_NoDup_create, Hb.
  - (* OQueue *) destruct (pst p); try discriminate E.
    destruct (integration_gate c x ts); [|discriminate E]. exact (c19_inv_queue_eval _ _ _ _ HI E).
Qed.

Lemma c19_resolve_In fuel : forall ps id p, resolve fuel ps id = Ok p -> In p ps /\ probot p = false.
Proof.
  induction fuel as [|f IH]; intros ps id p H; cbn [resolve] in H; [discriminate H|].
  destruct (find_pr id ps) as [q|] eqn:F; [|discriminate H].
  destruct (probot q) eqn:R.
  - destruct (pparent q) as [i|]; [|discriminate H]. apply (IH _ _ _ H).
  - injection H as <-. apply c19_find_pr_In in F. split; [apply F | exact R].
Qed.

Lemma c19_resolve_user fuel ps p : NoDup (map pid ps) -> In p ps -> probot p = false -> resolve (S fuel) ps (pid p) = Ok p.
Proof. intros ND Ip Hu. cbn [resolve]. rewrite (c19_find_pr_unique ps p ND Ip), Hu. reflexivity. Qed.

(* a child (robot-authored, naming p) resolves to p; the list is not empty, so there is fuel for the two steps *)
Lemma c19_resolve_child ps ch p :
  NoDup (map pid ps) -> In ch ps -> probot ch = true -> pparent ch = Some (pid p) -> In p ps -> probot p = false ->
  resolve (S (List.length ps)) ps (pid ch) = Ok p.
Proof.
  intros ND Ic Hr Hp Ip Hu. destruct ps as [|a t]; [destruct Ic|]. cbn [List.length resolve].
  rewrite (c19_find_pr_unique _ ch ND Ic), Hr, Hp, (c19_find_pr_unique _ p ND Ip), Hu. reflexivity.
Qed.

Lemma c19_min_by_id_In l : forall m, min_by_id l = Some m -> In m l.
Proof.
  induction l as [|c t IH]; intros m H; cbn [min_by_id] in H; [discriminate H|].
  destruct (min_by_id t) as [m0|].
  - destruct (Z.leb (pid c) (pid m0)); injection H as <-; [left; reflexivity | right; apply IH; reflexivity].
  - injection H as <-. left; reflexivity.
Qed.

Lemma c19_min_by_id_some l : l <> [] -> exists m, min_by_id l = Some m.
Proof.
  destruct l as [|c t]; [intro H; contradiction|]. intros _. cbn [min_by_id].
  destruct (min_by_id t) as [m0|]; [destruct (Z.leb (pid c) (pid m0))|]; eexists; reflexivity.
Qed.

Lemma c19_inv_eval_pr c x w id w' : c19_cascade_ok x -> c19_Inv w -> eval_pr c x w id = Ok w' -> c19_Inv w'.
Proof.
  intros Hc HI E. unfold eval_pr in E.
  destruct (resolve (S (List.length (prs w))) (prs w) id) as [p|] eqn:R; [|discriminate E].
  apply c19_resolve_In in R. destruct R as [Ip Hu]. eapply c19_inv_eval_user; eassumption.
Qed.

Lemma c19_inv_handle_commit c x w names w' :
  c19_cascade_ok x -> c19_Inv w -> handle_commit c x w names = Ok w' -> c19_Inv w'.
Proof.
  intros Hc HI E. unfold handle_commit in E. destruct names as [|n t].
  - destruct (oc x); try discriminate E. injection E as <-. exact HI.
  - destruct (use_queue c && existsb is_queue_name (n :: t)); [eapply c19_inv_queue_eval; eassumption|].
    destruct (min_by_id _) as [p|].
    + eapply c19_inv_eval_pr; eassumption.
    + destruct (oc x); try discriminate E. injection E as <-. exact HI.
Qed.

Definition c19_ev_ok (w : world) (e : event) : Prop :=
  match e with
  | EvalPR _ x | EvalCommit _ x | QueueJob x => c19_cascade_ok x
  | UserOpen s _ _ _ => c19_fresh_source w s
  | UserDecline _ | HostMerged _ => True
  end.

Lemma c19_step_inv c w e w' : c19_ev_ok w e -> c19_Inv w -> step c w e = Ok w' -> c19_Inv w'.
Proof.
  intros Hok HI E. destruct e as [id x|names x|x|s d par tit|id|ids]; cbn [step c19_ev_ok] in *.
  - eapply c19_inv_eval_pr; eassumption.
  - eapply c19_inv_handle_commit; eassumption.
  - eapply c19_inv_queue_eval; eassumption.
  - injection E as <-. apply c19_inv_user_open; assumption.
  - injection E as <-. exact (c19_inv_demote _ _ HI (c19_user_decline_demote id w) (c19_inv_NoDup_branches _ HI)).
  - injection E as <-. exact (c19_inv_demote _ _ HI (c19_host_merged_demote ids w) (c19_inv_NoDup_branches _ HI)).
Qed.

(* every order, every multiplicity: any list of events, each acceptable in the world it arrives in *)
Fixpoint c19_run_ok (c : cfg) (w : world) (es : list event) : Prop :=
  match es with
  | [] => True
  | e :: t => c19_ev_ok w e /\ match step c w e with Ok w' => c19_run_ok c w' t | Err _ => True end
  end.

Lemma c19_run_ok_all c es : Forall (fun e => forall w, c19_ev_ok w e) es -> forall w, c19_run_ok c w es.
Proof.
  induction 1 as [|e t He _ IH]; intro w; cbn [c19_run_ok]; [exact I|].
  split; [apply He|]. destruct (step c w e); [apply IH | exact I].
Qed.

(* a commit event on the tip of the source branch and / or of integration branches of p is handled as the
   event on p (p being the open pull request of that source): p is the only candidate *)
Lemma c19_redirect_commit c x w names p s :
  WellFormed w -> DistinctSrc w -> In p (prs w) -> pst p = OPEN -> psrc p = Src s ->
  names <> [] -> (forall n, In n names -> n = Src s \/ exists v, n = W v s) ->
  step c w (EvalCommit names x) = step c w (EvalPR (pid p) x).
Proof.
  intros [ND _] Hds Ip Ho Hs Hne Hall. cbn [step]. unfold handle_commit.
  destruct names as [|n0 t0] eqn:En; [contradiction|]. rewrite <- En in *.
  assert (Hq : existsb is_queue_name names = false).
  { apply existsb_false_iff. intros n Hn. destruct (Hall n Hn) as [->|[v ->]]; reflexivity. }
  assert (Hpn : forall n, In n names -> parent_name n = Src s)
    by (intros n Hn; destruct (Hall n Hn) as [->|[v ->]]; reflexivity).
  rewrite Hq, andb_false_r.
  set (l := filter (fun q => host_listed q && mem_name (psrc q) (map parent_name names)) (prs w)).
  assert (Hl : forall q, In q l -> q = p).
  { intros q Hq'. apply filter_In in Hq' as [Iq Hc]. apply andb_true_iff in Hc as [Hopen Hm].
    rewrite c19_host_listed in Hopen. apply c19_is_open_true in Hopen. apply c19_mem_name_In, in_map_iff in Hm as (n & En' & Hn).
    rewrite (Hpn n Hn) in En'. apply (NoDup_map_inj pid (prs w)); try assumption. apply (Hds q p s); auto. }
  assert (Hp : In p l).
  { apply filter_In. split; [exact Ip|]. rewrite c19_host_listed. apply andb_true_iff. split; [apply c19_is_open_true, Ho|].
    assert (I0 : In n0 names) by (rewrite En; left; reflexivity).
    apply c19_mem_name_In, in_map_iff. exists n0. rewrite (Hpn n0 I0). auto. }
  destruct (c19_min_by_id_some l) as [m Hm]; [intro E; rewrite E in Hp; destruct Hp|].
  rewrite Hm, (Hl m (c19_min_by_id_In _ _ Hm)). reflexivity.
Qed.

Lemma c19_step_user c x w p :
  NoDup (map pid (prs w)) -> In p (prs w) -> probot p = false -> step c w (EvalPR (pid p) x) = eval_user c x w p.
Proof. intros ND Ip Hu. cbn [step]. unfold eval_pr. rewrite (c19_resolve_user _ _ p ND Ip Hu). reflexivity. Qed.

Lemma c19_merge_queue x w p s d ts merged :
  NoDup (map pid (prs w)) -> In p (prs w) -> psrc p = Src s -> pdst p = Dst d ->
  targets_for d (cascade x) = Some ts -> In (pid p) merged ->
  NoIntegrationBranchLeft s ts (queue_merge x merged w).
Proof.
  intros ND Ip Hs Hd Ht Hm v Hv. unfold queue_merge. cbn [branches].
  generalize (branches w). induction merged as [|i t IH]; intros bs HI; [destruct Hm|]. cbn [fold_left] in HI.
  destruct Hm as [->|Hm]; [|exact (IH Hm _ HI)].
  destruct (c19_fold_close_filter x (prs w) t) as [f Hf]. rewrite Hf in HI. apply filter_In, proj1 in HI.
  unfold close_one in HI. rewrite (c19_find_pr_unique _ p ND Ip), Hs, Hd, Ht in HI.
  exact (c19_remove_w_clean s ts [] bs v Hv HI).
Qed.

(* where at most one pull request passes the test, declining the first one that does declines all that do *)
Lemma c19_decline_first_map f ps :
  NoDup (map pid ps) ->
  (forall c1 c2, In c1 ps -> In c2 ps -> f c1 = true -> f c2 = true -> pid c1 = pid c2) ->
  decline_first f ps = map (fun c => if f c then set_st DECLINED c else c) ps.
Proof.
  induction ps as [|c t IH]; intros ND Hu; [reflexivity|]. cbn [decline_first map].
  cbn [map] in ND. apply NoDup_cons_iff in ND as [Hn ND].
  destruct (f c) eqn:E; f_equal.
  - rewrite <- (map_id t) at 1. apply map_ext_in. intros a Ha.
    destruct (f a) eqn:Ea; [|reflexivity]. destruct Hn.
    rewrite (Hu c a); [apply in_map; exact Ha | left; reflexivity | right; exact Ha | exact E | exact Ea].
  - apply IH; [exact ND|]. intros c1 c2 H1 H2. apply Hu; right; assumption.
Qed.

(* the tests pass on OPEN pull requests only, so the pull requests declined for one version are out of the way
   of the next, and what was unique stays so *)
Lemma c19_fold_decline_map {A} (fv : A -> pr -> bool) ts : forall ps,
  NoDup (map pid ps) ->
  (forall v c, fv v c = true -> pst c = OPEN) ->
  (forall v c1 c2, In c1 ps -> In c2 ps -> fv v c1 = true -> fv v c2 = true -> pid c1 = pid c2) ->
  fold_left (fun l v => decline_first (fv v) l) ts ps =
  map (fun c => if existsb (fun v => fv v c) ts then set_st DECLINED c else c) ps.
Proof.
  induction ts as [|v t IH]; intros ps ND Hop Hu; cbn [fold_left existsb]; [symmetry; apply map_id|].
  pose proof (c19_demote_decline_first (fv v) ps ps (Hop v) (c19_demote_refl ps)) as Hd.
  rewrite IH; [| rewrite (c19_demote_ids _ _ Hd); exact ND | exact Hop |].
  - rewrite (c19_decline_first_map (fv v) ps ND), map_map by apply Hu.
    apply map_ext. intro c. destruct (fv v c) eqn:E; [|reflexivity]. cbn [orb].
    replace (existsb _ t) with false; [reflexivity|]. symmetry. apply not_true_iff_false. intro Ex.
    apply existsb_exists in Ex as (u & _ & Fu). apply Hop in Fu. discriminate Fu.
  - intros u c1 c2 I1 I2 F1 F2. apply (Hu u c1 c2); [apply (c19_demote_open_In _ _ Hd); eauto.. | exact F1 | exact F2].
Qed.

(* handle_declined does what the statement prescribes when the open pull requests from w/<v>/<s> to the
   destination of v are the robot's, at most one for each v, none for the first target *)
Lemma c19_handle_declined_spec s ts w :
  NoDup (map pid (prs w)) -> NoUserW w -> FirstClean s ts w ->
  (forall v c1 c2, In c1 (prs w) -> In c2 (prs w) -> pst c1 = OPEN -> pst c2 = OPEN ->
     child_match v s c1 = true -> child_match v s c2 = true -> pid c1 = pid c2) ->
  handle_declined s ts w = spec_after_decline s ts w.
Proof.
  intros ND HW HF Hu. unfold handle_declined, spec_after_decline. f_equal.
  - rewrite (c19_fold_decline_map (fun v c => host_listed c && is_open c && child_match v s c) ts (prs w) ND).
    + apply map_ext_in. intros a Ia.
      replace (existsb _ ts) with (is_integration_pr_b s (beyond_first ts) a); [reflexivity|].
      unfold is_integration_pr_b. rewrite (c19_host_listed a). unfold child_match.
      rewrite c19_existsb_and. destruct (is_open a) eqn:Eo; [|rewrite andb_false_r; reflexivity].
      apply c19_is_open_true in Eo. rewrite andb_true_r. cbn [andb].
      destruct ts as [|v1 rest]; [apply andb_false_r|]. cbn [beyond_first tl existsb].
      replace (name_eqb (psrc a) (W v1 s) && name_eqb (pdst a) (Dst v1)) with false.
      2:{ symmetry. apply not_true_iff_false. intro M. apply (c19_child_match_iff v1 s a) in M as [M1 M2].
          exact (proj2 HF a Ia Eo M1 M2). }
      cbn [orb]. destruct (existsb _ rest) eqn:Ex; [|apply andb_false_r].
      apply existsb_exists in Ex as (v & _ & M). apply (c19_child_match_iff v s a) in M as [M1 _].
      rewrite (HW a v s Ia Eo M1). reflexivity.
    + intros v a. apply c19_listed_open.
    + intros v c1 c2 I1 I2 F1 F2. pose proof (c19_listed_open _ _ F1). pose proof (c19_listed_open _ _ F2).
      apply andb_true_iff in F1 as [_ F1], F2 as [_ F2]. apply (Hu v c1 c2); assumption.
  - unfold remove_w. apply filter_ext_in. intros n Hn. f_equal.
    unfold mem_name, w_names, is_integration_name_b. rewrite existsb_map.
    destruct ts as [|v1 rest]; [reflexivity|]. cbn [beyond_first tl existsb].
    replace (name_eqb n (W v1 s)) with false; [reflexivity|]. symmetry. apply not_true_iff_false.
    intro E. apply c19_name_eqb_eq in E. subst n. exact (proj1 HF Hn).
Qed.

(* decline p on the host, then evaluate p: the result is exactly the world the statement prescribes *)
Lemma c19_decline c x w p s d ts :
  c19_Inv w -> NoUserW w -> user_open_pr w p s -> pdst p = Dst d ->
  targets_for d (cascade x) = Some ts -> NoDup ts -> FirstClean s ts w -> oc x = ODeclined ->
  step c (user_decline (pid p) w) (EvalPR (pid p) x) = Ok (spec_after_decline s ts (user_decline (pid p) w)).
Proof.
  intros HI HW Hp Hd Ht _ HF Ho. pose proof Hp as (Ip & Hu & Hopen & Hs).
  pose proof (c19_user_decline_demote (pid p) w) as Hdem. set (w1 := user_decline (pid p) w) in *.
  pose proof (c19_demote_open_In _ _ Hdem) as Hsub.
  assert (Hid1 : NoDup (map pid (prs w1))) by (rewrite (c19_demote_ids _ _ Hdem); apply HI).
  assert (Ip1 : In (set_st DECLINED p) (prs w1)).
  { apply in_map_iff. exists p. rewrite (proj2 (c19_is_open_true p) Hopen), Z.eqb_refl. auto. }
  pose proof (c19_step_user c x w1 (set_st DECLINED p) Hid1 Ip1 Hu) as R. cbn [pid set_st] in R. rewrite R.
  unfold eval_user. rewrite Ho. cbn [pst psrc pdst set_st]. rewrite Hs, Hd, Ht. f_equal.
  apply c19_handle_declined_spec; [exact Hid1 | | |].
  - intros a v s0 Ia Oa. exact (HW a v s0 (Hsub a Ia Oa) Oa).
  - destruct ts as [|v1 rest]; [exact I|]. split; [exact (proj1 HF)|].
    intros a Ia Oa. exact (proj2 HF a (Hsub a Ia Oa) Oa).
  - intros v c1 c2 I1 I2 O1 O2 M1 M2. apply c19_Inv_iff in HI as (_ & _ & _ & Hc).
    assert (G : forall a, In a (prs w1) -> pst a = OPEN -> child_match v s a = true -> integration_pr w v s a).
    { intros a Ia Oa M. apply c19_child_match_iff in M as [Ms Md].
      repeat split; auto. exact (HW a v s (Hsub a Ia Oa) Oa Ms). }
    apply (proj1 (Hc p s Hp v)); apply G; assumption.
Qed.

Lemma c19_nodup_Zb_sound l : nodup_Zb l = true -> NoDup l.
Proof.
  induction l as [|z t IH]; intro H; [constructor|]. cbn [nodup_Zb] in H. apply andb_true_iff in H as [H1 H2].
  constructor; [|apply IH, H2]. intro I. apply (c19_mem_Z_In z t) in I. unfold mem_Z in I. rewrite I in H1. discriminate H1.
Qed.

Lemma c19_well_formed_b_sound w : well_formed_b w = true -> WellFormed w.
Proof.
  unfold well_formed_b. intro H. apply andb_true_iff in H as [H1 H2]. split; [apply c19_nodup_Zb_sound, H1|].
  intro n. apply c19_count_le1. intro I. apply Nat.leb_le. exact (proj1 (forallb_forall _ _) H2 n I).
Qed.

Lemma c19_distinct_src_b_spec w : distinct_src_b w = true <-> DistinctSrc w.
Proof.
  split.
  - unfold distinct_src_b. intros H p1 p2 s I1 I2 O1 O2 S1 S2. rewrite forallb_forall in H.
    specialize (H p1 I1). rewrite forallb_forall in H. specialize (H p2 I2).
    rewrite (proj2 (c19_is_open_true p1) O1), (proj2 (c19_is_open_true p2) O2), S1, S2, String.eqb_refl in H.
    apply Z.eqb_eq, H.
  - intro H. unfold distinct_src_b. apply forallb_forall. intros p1 I1. apply forallb_forall. intros p2 I2.
    destruct (is_open p1 && is_open p2) eqn:E; [|reflexivity]. apply andb_true_iff in E as [O1 O2].
    apply c19_is_open_true in O1, O2.
    destruct (psrc p1) eqn:S1; try reflexivity. destruct (psrc p2) eqn:S2; try reflexivity.
    destruct (String.eqb s s0) eqn:Es; [|reflexivity]. apply String.eqb_eq in Es. subst s0.
    apply Z.eqb_eq. apply (H p1 p2 s); assumption.
Qed.

Lemma c19_shape_b_spec w s c0 : In c0 (prs w) ->
  (integration_shape_b s c0 = true <-> exists v, integration_pr w v s c0).
Proof.
  intro Ic. unfold integration_shape_b, integration_pr. rewrite !andb_true_iff, c19_is_open_true. split.
  - intros [[Hr Ho] Hm]. destruct (psrc c0); try discriminate Hm. destruct (pdst c0); try discriminate Hm.
    apply andb_true_iff in Hm as [E1 E2]. apply String.eqb_eq in E1, E2. subst. eauto 6.
  - intros [v (_ & Hr & Ho & -> & ->)]. rewrite !String.eqb_refl. auto.
Qed.

Lemma c19_named_after_b_spec p c0 : named_after_b p c0 = true <-> named_after p c0.
Proof.
  unfold named_after_b, named_after. destruct (pparent c0) as [a|], (ptitle c0) as [b|].
  - rewrite andb_true_iff, !Z.eqb_eq. split; intros [H1 H2]; split; congruence.
  - split; [discriminate | intros [_ H]; discriminate H].
  - split; [discriminate | intros [H _]; discriminate H].
  - split; [discriminate | intros [H _]; discriminate H].
Qed.

Lemma c19_one_to_one_b_spec w : one_to_one_b w = true <-> OneToOne w.
Proof.
  split.
  - unfold one_to_one_b. intros H p s [Ip [Hu [Ho Hs]]] v. rewrite forallb_forall in H. specialize (H p Ip).
    rewrite Hs in H. unfold is_user_open_b in H. rewrite Hu, (proj2 (c19_is_open_true p) Ho) in H. cbn [negb andb] in H.
    apply andb_true_iff in H as [HA HB]. rewrite forallb_forall in HA, HB.
    assert (Hsh : forall c0, integration_pr w v s c0 -> integration_shape_b s c0 = true)
      by (intros c0 C0; apply (c19_shape_b_spec w s c0); [apply C0 | exists v; exact C0]).
    split; [|split].
    + apply c19_count_le1. intro I. specialize (HA _ I). cbn in HA. rewrite String.eqb_refl in HA. apply Nat.leb_le, HA.
    + intros c1 c2 C1 C2. pose proof (HB c1 (proj1 C1)) as H1. rewrite (Hsh c1 C1) in H1.
      apply andb_true_iff in H1 as [_ H1]. rewrite forallb_forall in H1. specialize (H1 c2 (proj1 C2)).
      rewrite (Hsh c2 C2) in H1. destruct C1 as (_ & _ & _ & S1 & _), C2 as (_ & _ & _ & S2 & _).
      rewrite S1, S2, c19_name_eqb_refl in H1. apply Z.eqb_eq, H1.
    + intros c0 C0. pose proof (HB c0 (proj1 C0)) as H1. rewrite (Hsh c0 C0) in H1.
      apply andb_true_iff in H1. apply c19_named_after_b_spec, H1.
  - intro H. unfold one_to_one_b. apply forallb_forall. intros p Ip.
    destruct (psrc p) as [s| | | |] eqn:Hs; try reflexivity.
    destruct (is_user_open_b p) eqn:Hu; [|reflexivity]. unfold is_user_open_b in Hu. apply andb_true_iff in Hu as [Hu Ho].
    apply negb_true_iff in Hu. apply c19_is_open_true in Ho.
    pose proof (H p s (conj Ip (conj Hu (conj Ho Hs)))) as Hp.
    apply andb_true_iff. split; apply forallb_forall.
    + intros n Hn. destruct n as [|v s'| | |]; try reflexivity. destruct (String.eqb s s') eqn:E; [|reflexivity].
      apply String.eqb_eq in E. subst s'. apply Nat.leb_le. apply (Hp v).
    + intros c1 I1. destruct (integration_shape_b s c1) eqn:E1; [|reflexivity].
      apply (c19_shape_b_spec w s c1 I1) in E1 as [v C1]. destruct (Hp v) as [_ [Huq Hn]].
      apply andb_true_iff. split; [apply c19_named_after_b_spec, Hn, C1|].
      apply forallb_forall. intros c2 I2.
      destruct (integration_shape_b s c2 && name_eqb (psrc c1) (psrc c2)) eqn:E2; [|reflexivity].
      apply andb_true_iff in E2 as [E2 En]. apply (c19_shape_b_spec w s c2 I2) in E2 as [v2 C2].
      apply c19_name_eqb_eq in En. pose proof C1 as (_ & _ & _ & S1 & _). pose proof C2 as (_ & _ & _ & S2 & _).
      rewrite S1, S2 in En. injection En as <-. apply Z.eqb_eq, Huq; assumption.
Qed.

Lemma c19_no_user_w_b_sound w : no_user_w_b w = true -> NoUserW w.
Proof.
  unfold no_user_w_b. intros H c0 v s Ic Ho Hs. rewrite forallb_forall in H. specialize (H c0 Ic).
  rewrite Hs, (proj2 (c19_is_open_true c0) Ho) in H. exact H.
Qed.

Lemma c19_inv_b_sound w : well_formed_b w && distinct_src_b w && one_to_one_b w = true -> c19_Inv w.
Proof.
  intro H. apply andb_true_iff in H as [H H3]. apply andb_true_iff in H as [H1 H2].
  split; [apply c19_well_formed_b_sound, H1 | split; [apply c19_distinct_src_b_spec, H2 | apply c19_one_to_one_b_spec, H3]].
Qed.

(* Without the hypothesis on source names the statement is false of the model (and of the code: the witnesses
   below are replayed on the real system by the harness, corpus/C19). *)

Open Scope string_scope.

Definition c19_cfg_on : cfg := mkCfg true true false.
Definition c19_casc : list (string * list string) :=
  [("4.3", ["4.3"; "5.1"; "10.0"]); ("5.1", ["5.1"; "10.0"]); ("10.0", ["10.0"])].
Definition c19_ctx (o : outcome) : ectx := mkCtx c19_casc false false false o.

Lemma c19_casc_ok o : c19_cascade_ok (c19_ctx o).
Proof.
  intros d ts H. cbn in H.
  destruct H as [H|[H|[H|[]]]]; injection H as <- <-; repeat constructor; cbn; intuition discriminate.
Qed.

(* how the examples show that a closed evaluation succeeds in a world that satisfies P: one evaluation, of a
   closed term *)
Lemma c19_ok_intro (r : result world) (P : world -> Prop) :
  match r with Ok w' => P w' | Err _ => False end -> exists w', r = Ok w' /\ P w'.
Proof. destruct r; [eauto | intros []]. Qed.

(* two open pull requests from the same branch, to development/5.1 and development/4.3 *)
Definition c19_w_same_src : world :=
  mkWorld [mkPr 1 false (Src "bugfix/TEST-1") (Dst "5.1") OPEN None None;
           mkPr 2 false (Src "bugfix/TEST-1") (Dst "4.3") OPEN None None] [].

(* "declines exactly ITS open integration pull requests": without the hypothesis, declining one pull request
   declines the integration pull requests named after another one.
   Pull request 1 (-> 4.3) has been evaluated; pull request 4 (same branch -> 5.1) is then declined *)
Definition c19_w_decline : world :=
  mkWorld [mkPr 1 false (Src "bugfix/TEST-1") (Dst "4.3") OPEN None None;
           mkPr 2 true (W "5.1" "bugfix/TEST-1") (Dst "5.1") OPEN (Some 1%Z) (Some 1%Z);
           mkPr 3 true (W "10.0" "bugfix/TEST-1") (Dst "10.0") OPEN (Some 1%Z) (Some 1%Z);
           mkPr 4 false (Src "bugfix/TEST-1") (Dst "5.1") OPEN None None]
          [W "5.1" "bugfix/TEST-1"; W "10.0" "bugfix/TEST-1"].

Lemma c19_decline_own_refuted :
  ~ forall c x w p s d ts w', WellFormed w -> user_open_pr w p s -> pdst p = Dst d ->
      targets_for d (cascade x) = Some ts -> NoDup ts -> oc x = ODeclined ->
      step c (user_decline (pid p) w) (EvalPR (pid p) x) = Ok w' ->
      forall q q', In q (prs w) -> pst q = OPEN -> pid q <> pid p -> In q' (prs w') -> pid q' = pid q ->
                   pst q' = DECLINED -> pparent q = Some (pid p).
Proof.
  intro H.
  set (p4 := mkPr 4 false (Src "bugfix/TEST-1") (Dst "5.1") OPEN None None).
  set (q := mkPr 3 true (W "10.0" "bugfix/TEST-1") (Dst "10.0") OPEN (Some 1%Z) (Some 1%Z)).
  destruct (c19_ok_intro (step c19_cfg_on (user_decline 4 c19_w_decline) (EvalPR 4 (c19_ctx ODeclined)))
                         (fun w' => In (set_st DECLINED q) (prs w'))) as (w' & E & I'); [vm_compute; auto|].
  assert (HW : WellFormed c19_w_decline) by (apply c19_well_formed_b_sound; vm_compute; reflexivity).
  assert (Hp : user_open_pr c19_w_decline p4 "bugfix/TEST-1") by (repeat split; cbn; auto).
  pose proof (c19_casc_ok ODeclined "5.1" ["5.1"; "10.0"] (or_intror (or_introl eq_refl))) as ND.
  assert (F : pparent q = Some (pid p4)); [|discriminate F].
  apply (H c19_cfg_on (c19_ctx ODeclined) c19_w_decline p4 "bugfix/TEST-1" "5.1" ["5.1"; "10.0"] w'
           HW Hp eq_refl eq_refl ND eq_refl E q (set_st DECLINED q)); try reflexivity; [cbn; auto | discriminate | exact I'].
Qed.

(* even with distinct sources among OPEN pull requests: an event on a pull request declined long ago (or on one
   of its old children) runs its decline handling again, on the integration data of the open pull request that
   now uses the same branch.
   #1 declined and cleaned up (children #2 #3 declined), #4 re-opens the branch towards 5.1, child #5 *)
Definition c19_w_stale : world :=
  mkWorld [mkPr 1 false (Src "feature/TEST-1") (Dst "4.3") DECLINED None None;
           mkPr 2 true (W "5.1" "feature/TEST-1") (Dst "5.1") DECLINED (Some 1%Z) (Some 1%Z);
           mkPr 3 true (W "10.0" "feature/TEST-1") (Dst "10.0") DECLINED (Some 1%Z) (Some 1%Z);
           mkPr 4 false (Src "feature/TEST-1") (Dst "5.1") OPEN None None;
           mkPr 5 true (W "10.0" "feature/TEST-1") (Dst "10.0") OPEN (Some 4%Z) (Some 4%Z)]
          [W "10.0" "feature/TEST-1"; Src "feature/TEST-1"].

Lemma c19_decline_stale_refuted :
  ~ forall c x w p w', WellFormed w -> DistinctSrc w -> OneToOne w -> NoUserW w ->
      In p (prs w) -> probot p = false -> pst p = DECLINED -> oc x = ODeclined -> c19_cascade_ok x ->
      step c w (EvalPR (pid p) x) = Ok w' ->
      forall q q', In q (prs w) -> pst q = OPEN -> In q' (prs w') -> pid q' = pid q -> pst q' = DECLINED ->
                   pparent q = Some (pid p).
Proof.
  intro H.
  set (p1 := mkPr 1 false (Src "feature/TEST-1") (Dst "4.3") DECLINED None None).
  set (q := mkPr 5 true (W "10.0" "feature/TEST-1") (Dst "10.0") OPEN (Some 4%Z) (Some 4%Z)).
  destruct (c19_ok_intro (step c19_cfg_on c19_w_stale (EvalPR 1 (c19_ctx ODeclined)))
                         (fun w' => In (set_st DECLINED q) (prs w'))) as (w' & E & I'); [vm_compute; auto 10|].
  assert (HI : c19_Inv c19_w_stale) by (apply c19_inv_b_sound; vm_compute; reflexivity).
  destruct HI as [HW [HD HO]].
  assert (HN : NoUserW c19_w_stale) by (apply c19_no_user_w_b_sound; vm_compute; reflexivity).
  assert (F : pparent q = Some (pid p1)); [|discriminate F].
  apply (H c19_cfg_on (c19_ctx ODeclined) c19_w_stale p1 w' HW HD HO HN (or_introl eq_refl) eq_refl eq_refl
           eq_refl (c19_casc_ok _) E q (set_st DECLINED q)); try reflexivity; [cbn; auto 10 | exact I'].
Qed.

(* a world with two pull requests on overlapping cascades, one of them evaluated, satisfies the hypotheses *)
Definition c19_w_ex : world :=
  mkWorld [mkPr 1 false (Src "bugfix/TEST-1") (Dst "4.3") OPEN None None;
           mkPr 2 true (W "5.1" "bugfix/TEST-1") (Dst "5.1") OPEN (Some 1%Z) (Some 1%Z);
           mkPr 3 true (W "10.0" "bugfix/TEST-1") (Dst "10.0") OPEN (Some 1%Z) (Some 1%Z);
           mkPr 4 false (Src "feature/TEST-2") (Dst "5.1") OPEN None None]
          [W "5.1" "bugfix/TEST-1"; W "10.0" "bugfix/TEST-1"; Src "bugfix/TEST-1"; Src "feature/TEST-2"].

Example c19_ex_inv : c19_Inv c19_w_ex /\ NoUserW c19_w_ex.
Proof. split; [apply c19_inv_b_sound | apply c19_no_user_w_b_sound]; vm_compute; reflexivity. Qed.

(* events in an arbitrary order with repetitions: evaluation of 4 (creates), of the child 2 twice, a commit
   event on a w/ tip, evaluation of 1 and 4 again, and of the new child 5; nothing is duplicated *)
Definition c19_es_ex : list event :=
  [EvalPR 4 (c19_ctx OCreated); EvalPR 2 (c19_ctx OCreated); EvalPR 2 (c19_ctx OCreated);
   EvalCommit [W "10.0" "feature/TEST-2"] (c19_ctx OCreated); EvalPR 1 (c19_ctx (OConflict 1));
   EvalPR 4 (c19_ctx OCreated); EvalPR 5 (c19_ctx OCreated)].

Example c19_ex_run :
  c19_run_ok c19_cfg_on c19_w_ex c19_es_ex /\
  exists w', run c19_cfg_on c19_w_ex c19_es_ex = Ok w' /\
             List.length (prs w') = 5%nat /\ List.length (branches w') = 5%nat.
Proof.
  split.
  - apply c19_run_ok_all. repeat (apply Forall_cons; [intro; apply c19_casc_ok|]). apply Forall_nil.
  - apply c19_ok_intro; vm_compute; auto.
Qed.

Example c19_ex_redirect :
  step c19_cfg_on c19_w_ex (EvalPR 3 (c19_ctx OCreated)) = step c19_cfg_on c19_w_ex (EvalPR 1 (c19_ctx OCreated))
  /\ step c19_cfg_on c19_w_ex (EvalCommit [W "5.1" "bugfix/TEST-1"; Src "bugfix/TEST-1"] (c19_ctx OMerged))
     = step c19_cfg_on c19_w_ex (EvalPR 1 (c19_ctx OMerged))
  /\ exists w', step c19_cfg_on c19_w_ex (EvalPR 1 (c19_ctx OMerged)) = Ok w' /\
                branches w' = [Src "bugfix/TEST-1"; Src "feature/TEST-2"].
Proof. split; [|split]; [vm_compute; reflexivity.. | apply c19_ok_intro; vm_compute; reflexivity]. Qed.

Example c19_ex_decline :
  FirstClean "bugfix/TEST-1" ["4.3"; "5.1"; "10.0"] c19_w_ex /\
  exists w', step c19_cfg_on (user_decline 1 c19_w_ex) (EvalPR 1 (c19_ctx ODeclined)) = Ok w' /\
             map pst (prs w') = [DECLINED; DECLINED; DECLINED; OPEN] /\
             branches w' = [Src "bugfix/TEST-1"; Src "feature/TEST-2"].
Proof.
  split; [|apply c19_ok_intro; vm_compute; auto].
  split; [apply c19_mem_name_false; reflexivity|]. intros c0 Hc Ho Hs Hd. cbn [c19_w_ex prs In] in Hc.
  destruct Hc as [<-|[<-|[<-|[<-|[]]]]]; discriminate Hd || discriminate Hs.
Qed.

(* the integration branches of pull request 1 have disappeared (deleted by hand, or removed after a partial queue
   merge) while its integration pull requests 2 and 3 are still OPEN: the next evaluation - here through an event
   on child 3, then a commit event on the source tip - re-creates the branches and REUSES the two pull requests *)
Definition c19_w_gone : world :=
  mkWorld (prs c19_w_ex) [Src "bugfix/TEST-1"; Src "feature/TEST-2"].

Example c19_ex_recreate :
  c19_Inv c19_w_gone /\
  exists w', run c19_cfg_on c19_w_gone [EvalPR 3 (c19_ctx OCreated); EvalCommit [Src "bugfix/TEST-1"] (c19_ctx OCreated)]
             = Ok w' /\
             prs w' = prs c19_w_gone /\
             branches w' = [Src "bugfix/TEST-1"; Src "feature/TEST-2"; W "5.1" "bugfix/TEST-1"; W "10.0" "bugfix/TEST-1"].
Proof.
  split; [apply c19_inv_b_sound; vm_compute; reflexivity|]. apply c19_ok_intro; vm_compute; auto.
Qed.

(* the gate of check_integration_branches: with both settings off, no option and no author approval, an
   evaluation of a pull request with several targets cannot get to the creation point *)
Example c19_ex_gate :
  step (mkCfg false false false) c19_w_ex (EvalPR 4 (c19_ctx OCreated)) = Err GateClosed /\
  step (mkCfg false false false) c19_w_ex (EvalPR 4 (c19_ctx ORequestIntegration)) = Ok c19_w_ex /\
  step (mkCfg false true false) c19_w_ex (EvalPR 4 (c19_ctx ORequestIntegration)) = Err GateOpen /\
  (exists w', step (mkCfg false true false) c19_w_ex (EvalPR 4 (c19_ctx OCreated)) = Ok w' /\
              List.length (prs w') = 4%nat /\ List.length (branches w') = 5%nat) /\
  (exists w', step (mkCfg false false false) c19_w_ex (EvalPR 4 (mkCtx c19_casc true false false OCreated)) = Ok w' /\
              List.length (prs w') = 5%nat).
Proof.
  repeat apply conj; try (vm_compute; reflexivity); apply c19_ok_intro; vm_compute; auto.
Qed.
